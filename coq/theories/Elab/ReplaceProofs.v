(* Elab/ReplaceProofs.v — the replacement algebra of Elab/Replace.v (property C15): replacing a sub-hierarchy by
   delete + add gives, as a set, the metadata of the design built with the replacement in place, also along any sequence
   of replacements; nothing owned under the slot survives.  The proofs turn on [meta] commuting with filtering by owner
   (meta_filter_owner) and on delete / saved splitting the entries owned outside the slot (delete_saved_partition).
   Unbounded: arbitrary hierarchies, arbitrary slots (any depth / list position = any name), arbitrary sequences. *)
From Coq Require Import List Bool String.
From PV Require Import Elab.Replace.
Import ListNotations.

Lemma set_eq_refl {A} (a : list A) : set_eq a a.
Proof. intros x; tauto. Qed.
Lemma set_eq_sym {A} (a b : list A) : set_eq a b -> set_eq b a.
Proof. intros H x; symmetry; apply H. Qed.
Lemma set_eq_trans {A} (a b c : list A) : set_eq a b -> set_eq b c -> set_eq a c.
Proof. intros H1 H2 x; rewrite (H1 x); apply H2. Qed.
Lemma set_eq_app {A} (a a' b b' : list A) : set_eq a a' -> set_eq b b' -> set_eq (a ++ b) (a' ++ b').
Proof. intros H1 H2 x. rewrite !in_app_iff, (H1 x), (H2 x). tauto. Qed.
Lemma set_eq_filter {A} (f : A -> bool) (a b : list A) : set_eq a b -> set_eq (filter f a) (filter f b).
Proof. intros H x. rewrite !filter_In, (H x). tauto. Qed.
Lemma set_eq_flat_map {A B} (f : A -> list B) (a b : list A) : set_eq a b -> set_eq (flat_map f a) (flat_map f b).
Proof. intros H y. rewrite !in_flat_map. split; intros (x & Hx & Hy); exists x; split; auto; apply H; auto. Qed.

Lemma under_app c n : under c (c ++ n) = true.
Proof. induction c as [|x c IH]; cbn; [reflexivity|]. now rewrite String.eqb_refl. Qed.
Lemma under_spec c n : under c n = true <-> exists r, n = c ++ r.
Proof.
  split.
  - revert n; induction c as [|x c IH]; intros n H; [exists n; reflexivity|].
    destruct n as [|y n]; cbn in H; [discriminate|]. apply andb_true_iff in H as [E H]. apply String.eqb_eq in E; subst.
    destruct (IH n H) as [r ->]. exists r; reflexivity.
  - intros [r ->]. apply under_app.
Qed.
Lemma under_trans a b n : under a b = true -> under b n = true -> under a n = true.
Proof.
  rewrite !under_spec. intros [r ->] [r' ->]. exists (r ++ r'). now rewrite app_assoc.
Qed.

Lemma meta_app H1 H2 : meta (H1 ++ H2) = meta H1 ++ meta H2.
Proof. unfold meta. apply flat_map_app. Qed.
Lemma meta_In H g : In g (meta H) <-> exists loc, In (fst g, loc) H /\ In (snd g) loc.
Proof.
  unfold meta. rewrite in_flat_map. split.
  - intros ([c loc] & Hc & Hg). cbn in Hg. apply in_map_iff in Hg as (f & <- & Hf). exists loc. cbn. auto.
  - intros (loc & Hc & Hf). exists (fst g, loc). split; [exact Hc|]. cbn. apply in_map_iff. exists (snd g). destruct g; auto.
Qed.
(* every entry is owned by exactly the component that contributed it *)
Lemma filter_owner_map (p : name -> bool) c (loc : list fact) :
  filter (fun g => p (owner g)) (map (pair c) loc) = if p c then map (pair c) loc else [].
Proof.
  induction loc as [|f loc IH]; [destruct (p c); reflexivity|]. cbn [map filter]. unfold owner at 1. cbn [fst].
  rewrite IH. destruct (p c); reflexivity.
Qed.
Lemma flat_map_filter_gen {A B} (F : A -> list B) (q : A -> bool) (r : B -> bool)
  (Hq : forall a, filter r (F a) = if q a then F a else []) l : flat_map F (filter q l) = filter r (flat_map F l).
Proof.
  induction l as [|a l IH]; [reflexivity|]. cbn [filter flat_map]. rewrite filter_app, Hq, <- IH.
  destruct (q a); reflexivity.
Qed.
Lemma meta_filter_owner (p : name -> bool) H :
  meta (filter (fun cl => p (fst cl)) H) = filter (fun g => p (owner g)) (meta H).
Proof. unfold meta. apply flat_map_filter_gen. intros [c loc]. apply filter_owner_map. Qed.
Lemma meta_rebase_owner c H' g : In g (meta (rebase c H')) -> under c (owner g) = true.
Proof.
  intros Hg. apply meta_In in Hg as (loc & Hc & _). unfold rebase in Hc. apply in_map_iff in Hc as ([c' l'] & E & _).
  cbn in E. injection E as E _. unfold owner. rewrite <- E. apply under_app.
Qed.

Lemma delete_saved_partition M c :
  set_eq (delete M c ++ saved M c) (filter (fun g => negb (under c (owner g))) M).
Proof.
  intros g. unfold delete, saved. rewrite in_app_iff, !filter_In. destruct (refers_into c g); destruct (under c (owner g)); cbn; tauto.
Qed.

(* replacing a sub-hierarchy by delete + add gives exactly the metadata of the design built with the replacement in place *)
Theorem delete_add_eq_build H c H' :
  set_eq (replace (meta H) c H') (meta (subst H c H')).
Proof.
  unfold replace, add, subst. rewrite meta_app, (meta_filter_owner (fun n => negb (under c n)) H).
  intros g. rewrite !in_app_iff, <- (delete_saved_partition (meta H) c g), in_app_iff. tauto.
Qed.

(* same statement with the implementation's failure mode: re-evaluating a saved name raises unless the new
   component exposes it *)
Theorem delete_add_eq_build_checked H c H' : exposes c H' (saved (meta H) c) = true ->
  exists M', replace_checked (meta H) c H' = Some M' /\ set_eq M' (meta (subst H c H')).
Proof.
  intros E. unfold replace_checked. rewrite E. eexists; split; [reflexivity|apply delete_add_eq_build].
Qed.

(* the algebra respects set equality (pymtl3 keeps sets; the order of collection is irrelevant) *)
Lemma replace_set_eq M1 M2 c H' : set_eq M1 M2 -> set_eq (replace M1 c H') (replace M2 c H').
Proof.
  intros E. unfold replace, add, delete, saved.
  apply set_eq_app; [apply set_eq_filter, E|]. apply set_eq_app; [apply set_eq_refl|apply set_eq_filter, E].
Qed.

(* any sequence of replacements, at any depth / list position, also repeatedly on the same slot *)
Theorem replace_seq rs : forall H M, set_eq M (meta H) ->
  set_eq (replace_seq_meta M rs) (meta (replace_seq_hier H rs)).
Proof.
  induction rs as [|[c H'] rs IH]; intros H M E; [exact E|].
  cbn [replace_seq_meta replace_seq_hier fold_left fst snd]. apply IH.
  eapply set_eq_trans; [apply replace_set_eq, E|apply delete_add_eq_build].
Qed.

Lemma existsb_false_forall {A} (f : A -> bool) l : existsb f l = false <-> forall x, In x l -> f x = false.
Proof.
  induction l as [|y l IH]; cbn; [split; [intros _ x []|reflexivity]|].
  rewrite orb_false_iff, IH. split; [intros [H1 H2] x [<-|Hx]; auto|intros H; split; [apply H; now left|intros x Hx; apply H; now right]].
Qed.

Theorem no_residue_after_delete M c g : In g (delete M c) ->
  under c (owner g) = false /\ forall r, In r (abs_refs g) -> under c r = false.
Proof.
  unfold delete. rewrite filter_In. intros [_ H]. apply andb_true_iff in H as [H1 H2].
  apply negb_true_iff in H1. apply negb_true_iff in H2. split; [exact H1|]. now apply existsb_false_forall.
Qed.

(* after the replacement: whatever is owned under the slot is NEW; whatever refers into the slot is new or is a saved
   outside entry whose name was re-evaluated against the new subtree *)
Theorem no_residue M c H' g : In g (replace M c H') ->
  (under c (owner g) = true -> In g (meta (rebase c H'))) /\
  (forall r, In r (abs_refs g) -> under c r = true -> In g (meta (rebase c H')) \/ In g (saved M c)).
Proof.
  unfold replace, add. rewrite !in_app_iff. intros [Hd|[Hn|Hs]].
  - destruct (no_residue_after_delete M c g Hd) as [H1 H2]. split; [congruence|]. intros r Hr U. rewrite (H2 r Hr) in U. discriminate.
  - split; auto.
  - split; [|auto]. unfold saved in Hs. apply filter_In in Hs as [_ H]. apply andb_true_iff in H as [H _].
    apply negb_true_iff in H. congruence.
Qed.

(* when the replacement exposes the saved names, every reference into the slot names an object of the NEW subtree *)
Theorem saved_refs_resolve M c H' g r : exposes c H' (saved M c) = true -> In g (saved M c) -> In r (abs_refs g) ->
  under c r = true -> resolves (declared (meta (rebase c H'))) r = true.
Proof.
  unfold exposes. rewrite forallb_forall. intros E Hg Hr U. specialize (E g Hg). rewrite forallb_forall in E.
  specialize (E r Hr). rewrite U in E. exact E.
Qed.

(* components outside the slot keep exactly their contributions *)
Theorem outside_untouched H c H' g : under c (owner g) = false ->
  (In g (meta (subst H c H')) <-> In g (meta H)).
Proof.
  intros U. unfold subst. rewrite meta_app, in_app_iff, (meta_filter_owner (fun n => negb (under c n)) H), filter_In.
  split.
  - intros [[Hg _]|Hn]; [exact Hg|]. apply meta_rebase_owner in Hn. congruence.
  - intros Hg. left. split; [exact Hg|]. now rewrite U.
Qed.

(* replacing twice = replacing once by the last *)
Theorem replace_twice H c H1 H2 : set_eq (meta (subst (subst H c H1) c H2)) (meta (subst H c H2)).
Proof.
  intros g. destruct (under c (owner g)) eqn:U.
  - unfold subst. rewrite !meta_app, !in_app_iff, !(meta_filter_owner (fun n => negb (under c n))), !filter_In. rewrite U. cbn.
    split; (intros [[_ F]|Hn]; [discriminate|right; exact Hn]).
  - rewrite !(outside_untouched _ c _ g U). tauto.
Qed.

Lemma row_eqb_eq a : forall b, row_eqb a b = true <-> a = b.
Proof.
  induction a as [|x a IH]; intros [|y b]; cbn; try (split; [discriminate|congruence]); [tauto|].
  rewrite andb_true_iff, String.eqb_eq, IH. split; [intros [-> ->]; reflexivity|intros E; inversion E; auto].
Qed.
Lemma row_mem_In r l : row_mem r l = true <-> In r l.
Proof.
  unfold row_mem. rewrite existsb_exists. split; [intros (x & Hx & E); apply row_eqb_eq in E; now subst|].
  intros H; exists r; split; [exact H|now apply row_eqb_eq].
Qed.
Lemma rows_eq_spec a b : rows_eq a b = true <-> set_eq a b.
Proof.
  unfold rows_eq, rows_subset. rewrite andb_true_iff, !forallb_forall. split.
  - intros [H1 H2] x. split; intros Hx; [apply row_mem_In, H1, Hx|apply row_mem_In, H2, Hx].
  - intros H. split; intros x Hx; apply row_mem_In, H, Hx.
Qed.
(* the two ways the harness computes the expected rows agree (so one accepted comparison implies the other) *)
Theorem views_replace_seq H rs : set_eq (views (replace_seq_meta (meta H) rs)) (views (meta (replace_seq_hier H rs))).
Proof. apply set_eq_flat_map, replace_seq, set_eq_refl. Qed.

Lemma rows_subset_fast_sound a b : rows_subset_fast a b = true -> forall r, In r a -> In r b.
Proof.
  unfold rows_subset_fast. rewrite andb_true_iff, !forallb_forall. intros [T B] r Hr.
  specialize (T r Hr). apply existsb_exists in T as (t & Ht & Et). apply String.eqb_eq in Et.
  specialize (B t Ht). cbv zeta in B. rewrite forallb_forall in B.
  assert (Hb : In r (bucket t a)) by (unfold bucket; apply filter_In; split; [exact Hr|now apply String.eqb_eq]).
  specialize (B r Hb). apply row_mem_In in B. unfold bucket in B. apply filter_In in B. tauto.
Qed.
Lemma srev_involutive s : srev (srev s) = s.
Proof.
  unfold srev. now rewrite list_ascii_of_string_of_list_ascii, rev_involutive, string_of_list_ascii_of_string.
Qed.
Lemma rrow_involutive r : rrow (rrow r) = r.
Proof.
  destruct r as [|t rest]; [reflexivity|]. cbn. f_equal. rewrite map_map. rewrite <- (map_id rest) at 2.
  apply map_ext. intros x. apply srev_involutive.
Qed.
Lemma In_map_rrow r l : In (rrow r) (map rrow l) -> In r l.
Proof.
  intros H. apply in_map_iff in H as (r' & E & Hr). apply (f_equal rrow) in E. rewrite !rrow_involutive in E. now subst.
Qed.
Lemma rows_eq_fast_sound a b : rows_eq_fast a b = true -> set_eq a b.
Proof.
  unfold rows_eq_fast. cbv zeta. rewrite andb_true_iff. intros [H1 H2] r.
  split; intros Hr; apply In_map_rrow; [apply (rows_subset_fast_sound _ _ H1)|apply (rows_subset_fast_sound _ _ H2)];
    apply in_map; exact Hr.
Qed.
(* an accepted case: the rows pymtl3 reports after the replacement sequence are exactly the rows of the design built
   from scratch with the replacements in place *)
Theorem case_ok_sound H rs obs both : case_ok (H, rs, obs, both) = true -> set_eq obs (views (meta (replace_seq_hier H rs))).
Proof.
  unfold case_ok. intros E. apply andb_true_iff in E as [E _]. apply rows_eq_fast_sound in E. now apply set_eq_sym.
Qed.
