(* Elab/AddressProofs.v — the structural walk pymtl3 uses (same object / ancestor chain / overlapping sibling slice)
   relates two well-formed signal objects iff their bit intervals inside the packed root intersect.  No axioms. *)
From PV Require Import Base.Prelude Sched.Accept Elab.Address.
Open Scope Z_scope.

(* ivl_overlap without the root test, on the (lo, hi) pairs that rng_in returns *)
Definition ov (a b : Z * Z) : bool := (fst a <? snd b) && (fst b <? snd a).

(* Connectable._overlap is interval overlap on non-empty slices *)
Lemma overlap_py_ov l1 h1 l2 h2 : l1 < h1 -> l2 < h2 -> overlap_py l1 h1 l2 h2 = ov (l1, h1) (l2, h2).
Proof. intros H1 H2. unfold overlap_py, ov. cbn [fst snd]. destruct (l1 <=? l2) eqn:E; lia. Qed.

Lemma step_eqb_sym s t : step_eqb s t = step_eqb t s.
Proof. unfold step_eqb. destruct s, t; cbn; lia. Qed.

Lemma step_eqb_true s t : step_eqb s t = true -> slo s = slo t /\ shi s = shi t /\ is_slc s = is_slc t.
Proof. unfold step_eqb. destruct s, t; cbn; lia. Qed.

Lemma nested_cons plo phi s c : nested plo phi (s :: c) = true ->
  plo <= slo s /\ slo s < shi s /\ shi s <= phi /\ (is_slc s = true -> c = []) /\ nested (slo s) (shi s) c = true.
Proof.
  cbn [nested]. intros H. repeat (apply andb_prop in H; destruct H as [H ?]).
  repeat split; try lia; try assumption.
  intros Hs. rewrite Hs in *. destruct c; [reflexivity|discriminate].
Qed.

Lemma nested_rng : forall c plo phi, nested plo phi c = true ->
  plo <= fst (rng_in plo phi c) /\ fst (rng_in plo phi c) < snd (rng_in plo phi c) /\ snd (rng_in plo phi c) <= phi.
Proof.
  induction c as [|s c IH]; intros plo phi H.
  - cbn in *. lia.
  - apply nested_cons in H. destruct H as [H1 [H2 [H3 [_ H5]]]]. specialize (IH _ _ H5). cbn [rng_in]. lia.
Qed.

Lemma walk_chain_nil_l d : walk_chain [] d = true.
Proof. reflexivity. Qed.
Lemma walk_chain_nil_r c : walk_chain c [] = true.
Proof. destruct c; reflexivity. Qed.

(* equal first steps: descend.  sib_overlap (s :: c) (t :: d) is sib_overlap c d, except when c = d = [] and both steps
   are slices; there prefix_b already answers true on both sides *)
Lemma walk_chain_eq_step s t c d : step_eqb s t = true -> walk_chain (s :: c) (t :: d) = walk_chain c d.
Proof.
  intros He. unfold walk_chain. cbn [prefix_b]. rewrite (step_eqb_sym t s), He. cbn [andb].
  destruct c, d, s, t; cbn [prefix_b sib_overlap]; rewrite ?He; reflexivity.
Qed.

(* different first steps: both prefix tests fail, and sib_overlap is at its base case (two final slices) or false *)
Lemma walk_chain_neq_step s t c d : step_eqb s t = false ->
  walk_chain (s :: c) (t :: d) =
  match c, d, s, t with [], [], Slc l1 h1, Slc l2 h2 => overlap_py l1 h1 l2 h2 | _, _, _, _ => false end.
Proof.
  intros Hn. unfold walk_chain. cbn [prefix_b]. rewrite (step_eqb_sym t s), Hn. cbn [andb orb].
  destruct c, d, s, t; cbn [sib_overlap]; rewrite ?Hn; reflexivity.
Qed.

Lemma walk_chain_rng : forall c d plo phi,
  nested plo phi c = true -> nested plo phi d = true -> div_ok c d = true ->
  walk_chain c d = ov (rng_in plo phi c) (rng_in plo phi d).
Proof.
  induction c as [|s c IH]; intros d plo phi Hc Hd Hdiv.
  - rewrite walk_chain_nil_l. pose proof (nested_rng [] plo phi Hc). pose proof (nested_rng d plo phi Hd).
    unfold ov. cbn [rng_in fst snd] in *. lia.
  - destruct d as [|t d].
    + rewrite walk_chain_nil_r. pose proof (nested_rng (s :: c) plo phi Hc). pose proof (nested_rng [] plo phi Hd).
      unfold ov. cbn [rng_in fst snd] in *. lia.
    + pose proof (nested_cons _ _ _ _ Hc) as [C1 [C2 [C3 [C4 C5]]]].
      pose proof (nested_cons _ _ _ _ Hd) as [D1 [D2 [D3 [D4 D5]]]].
      cbn [div_ok] in Hdiv. cbn [rng_in]. destruct (step_eqb s t) eqn:He.
      * rewrite (walk_chain_eq_step s t c d He).
        destruct (step_eqb_true s t He) as [E1 [E2 _]]. rewrite E1, E2 in C5 |- *.
        apply IH; assumption.
      * rewrite (walk_chain_neq_step s t c d He).
        pose proof (nested_rng c _ _ C5) as RC. pose proof (nested_rng d _ _ D5) as RD.
        apply orb_prop in Hdiv. destruct Hdiv as [Hs|Hdis].
        -- apply andb_prop in Hs. destruct Hs as [Hs Ht]. rewrite (C4 Hs), (D4 Ht).
           destruct s, t; try discriminate. cbn [rng_in slo shi] in *. apply overlap_py_ov; assumption.
        -- (* disjoint first steps: the walk can only answer through overlap_py on two final slices, false on disjoint ranges *)
           assert (ov (rng_in (slo s) (shi s) c) (rng_in (slo t) (shi t) d) = false) as ->.
           { unfold ov, disjoint_steps in *. lia. }
           destruct c, d, s, t; try reflexivity.
           unfold disjoint_steps in Hdis. cbn [slo shi] in *. rewrite overlap_py_ov by assumption. unfold ov. cbn [fst snd]. lia.
Qed.

(* on well-formed, compatible addresses the structural walk = "share a bit" *)
Theorem walk_iff_overlap a b : wf_addr a = true -> wf_addr b = true -> compat a b = true ->
  walk_rel a b = ivl_rel a b.
Proof.
  unfold wf_addr, compat, walk_rel, ivl_rel, ivl_overlap, ivl_of, iroot, ilo, ihi. cbn [fst snd].
  intros Wa Wb Hc. destruct (Nat.eqb (a_root a) (a_root b)) eqn:R; cbn [andb negb orb] in *; [|reflexivity].
  apply andb_prop in Hc. destruct Hc as [Hw Hd]. apply Z.eqb_eq in Hw. rewrite <- Hw in Wb |- *.
  rewrite (walk_chain_rng _ _ 0 (a_width a) Wa Wb Hd). unfold ov. reflexivity.
Qed.

Theorem walk_iff_shared_bit a b : wf_addr a = true -> wf_addr b = true -> compat a b = true ->
  (walk_rel a b = true <-> exists v, in_ivl v (ivl_of a) = true /\ in_ivl v (ivl_of b) = true).
Proof.
  intros Wa Wb Hc. rewrite (walk_iff_overlap a b Wa Wb Hc). unfold ivl_rel.
  apply ivl_overlap_spec; unfold wf_ivl, ivl_of, ilo, ihi; cbn [fst snd].
  - pose proof (nested_rng _ _ _ Wa). lia.
  - pose proof (nested_rng _ _ _ Wb). lia.
Qed.

Theorem walk_iff_overlap_universe U a b : wf_universe U = true -> In a U -> In b U -> walk_rel a b = ivl_rel a b.
Proof.
  unfold wf_universe. intros H Ha Hb. apply andb_prop in H. destruct H as [H1 H2]. rewrite forallb_forall in H1, H2.
  apply walk_iff_overlap; [apply H1; exact Ha|apply H1; exact Hb|].
  specialize (H2 a Ha). rewrite forallb_forall in H2. apply H2. exact Hb.
Qed.
