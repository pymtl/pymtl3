(* Elab/DefectsProofs.v — proofs about the decision model of Elab/Defects.v (C09).  The decision is the first of the
   admissible alternatives, so what is shown of the alternatives carries over to it.  The checks that ask for driver
   candidates are compared once, for two option sets and two descriptions of a design at the same time (Section Agree);
   independence of statement order, and faithful = bit-level away from the two deviations, are instances.  No axioms. *)
From Coq Require Import ZArith List Bool Arith Permutation.
Import ListNotations.
From PV Require Import Sched.Accept Elab.Nets Elab.NetsProofs Elab.Address Elab.AddressProofs Elab.Defects.

(* the two lists have the same elements.  design_equiv states this of the write and read facts; on lists of nodes it is
   Nets.set_eq word for word, so the lemmas below also serve hypotheses and goals stated with set_eq *)
Definition same_elts {A} (l l' : list A) : Prop := forall x, In x l <-> In x l'.

Lemma same_elts_refl {A} (l : list A) : same_elts l l.
Proof. intros x. tauto. Qed.

Lemma same_elts_sym {A} (l l' : list A) : same_elts l l' -> same_elts l' l.
Proof. intros H x. specialize (H x). tauto. Qed.

Lemma same_elts_app {A} (a a' b b' : list A) : same_elts a a' -> same_elts b b' -> same_elts (a ++ b) (a' ++ b').
Proof. intros H1 H2 x. rewrite !in_app_iff. specialize (H1 x). specialize (H2 x). tauto. Qed.

Lemma perm_same_elts {A} (l l' : list A) : Permutation l l' -> same_elts l l'.
Proof. intros P x. split; [apply Permutation_in; exact P|apply Permutation_in; apply Permutation_sym; exact P]. Qed.

Lemma existsb_cong {A} (f g : A -> bool) l l' :
  same_elts l l' -> (forall x, In x l -> f x = g x) -> existsb f l = existsb g l'.
Proof.
  intros Hl Hf. apply eq_true_iff_eq. rewrite !existsb_exists. split.
  - intros [x [Hx H]]. exists x. split; [apply Hl; exact Hx|]. rewrite <- (Hf x Hx). exact H.
  - intros [x [Hx H]]. apply Hl in Hx. exists x. split; [exact Hx|]. rewrite (Hf x Hx). exact H.
Qed.

Lemma existsb_ext_in {A} (f g : A -> bool) l : (forall x, In x l -> f x = g x) -> existsb f l = existsb g l.
Proof. apply existsb_cong. apply same_elts_refl. Qed.

(* l' holds every member of l, possibly turned round by sw, and the test does not see the difference *)
Lemma existsb_und {A} (sw : A -> A) (f g : A -> bool) l l' :
  (forall x, In x l -> In x l' \/ In (sw x) l') -> (forall x, In x l -> f x = g x /\ f x = g (sw x)) ->
  existsb f l = true -> existsb g l' = true.
Proof.
  intros Hl Hf H. apply existsb_exists in H. destruct H as [x [Hx H]]. apply existsb_exists.
  destruct (Hf x Hx) as [E1 E2]. destruct (Hl x Hx) as [Hx'|Hx'].
  - exists x. split; [exact Hx'|]. rewrite <- E1. exact H.
  - exists (sw x). split; [exact Hx'|]. rewrite <- E2. exact H.
Qed.

(* a statement about some class carries over between partitions with the same classes *)
Lemma ex_parts (P Q : list node -> Prop) p q :
  parts_equiv p q -> (forall c c', In c p -> set_eq c c' -> (P c <-> Q c')) ->
  ((exists c, In c p /\ P c) <-> (exists c, In c q /\ Q c)).
Proof.
  intros [H1 H2] HPQ. split; intros [c [Hc H]].
  - destruct (H1 c Hc) as [c' [Hc' Hs]]. exists c'. split; [exact Hc'|]. apply (HPQ c c' Hc Hs). exact H.
  - destruct (H2 c Hc) as [c' [Hc' Hs]]. exists c'. split; [exact Hc'|]. apply (HPQ c' c Hc' (same_elts_sym _ _ Hs)). exact H.
Qed.

Lemma existsb_parts (f g : list node -> bool) p q :
  parts_equiv p q -> (forall c c', In c p -> set_eq c c' -> f c = g c') -> existsb f p = existsb g q.
Proof.
  intros HP Hf. apply eq_true_iff_eq. rewrite !existsb_exists. apply ex_parts; [exact HP|].
  intros c c' Hc Hs. rewrite (Hf c c' Hc Hs). reflexivity.
Qed.

Lemma in_edges C a b : In (a, b) (map (fun c => (c_a c, c_b c)) C) <-> exists h, In (mkC a b h) C.
Proof.
  rewrite in_map_iff. split.
  - intros [[x y h] [He Hin]]. cbn in He. inversion He; subst. exists h. exact Hin.
  - intros [h Hin]. exists (mkC a b h). split; [reflexivity|exact Hin].
Qed.

Lemma in_edges_und C a b : (In (a, b) (map (fun c => (c_a c, c_b c)) C) \/ In (b, a) (map (fun c => (c_a c, c_b c)) C)) <->
  exists h, In (mkC a b h) C \/ In (mkC b a h) C.
Proof.
  rewrite !in_edges. split.
  - intros [[h H]|[h H]]; exists h; [left|right]; exact H.
  - intros [h [H|H]]; [left|right]; exists h; exact H.
Qed.

Lemma conn_same D a b h : In (mkC a b h) (d_conn D) -> same (components (edges D)) a b.
Proof. intros H. apply components_edge. apply in_edges. exists h. exact H. Qed.

Lemma in_fresh O D N R x : In x (fresh O D N R) <->
  exists net, In net N /\ existsb (cand O D R net) net = true /\ In x net /\ cand O D R net x = false /\ memn x R = false.
Proof.
  unfold fresh. rewrite in_flat_map. split; intros [net [Hnet H]]; exists net; (split; [exact Hnet|]).
  - destruct (existsb (cand O D R net) net); [|destruct H]. rewrite filter_In, andb_true_iff, !negb_true_iff in H. tauto.
  - destruct H as [-> H]. rewrite filter_In, andb_true_iff, !negb_true_iff. tauto.
Qed.

Lemma in_class_of N a x : In x (class_of N a) <-> same N a x.
Proof.
  unfold class_of, same. rewrite in_concat. split.
  - intros [c [Hcf Hx]]. apply filter_In in Hcf. destruct Hcf as [Hcin Ha]. apply memn_In in Ha. exists c. auto.
  - intros [c [Hcin [Ha Hx]]]. exists c. split; [|exact Hx]. apply filter_In. split; [exact Hcin|apply memn_In; exact Ha].
Qed.

(* when a and b share a class, the class of a in the components of E and the class of b in those of an equivalent E'
   have the same members *)
Lemma class_of_comp_eqv E E' a b : edges_equiv E E' -> same (components E) a b ->
  set_eq (class_of (components E) a) (class_of (components E') b).
Proof.
  intros Q Hab x. rewrite !in_class_of, <- (same_parts_equiv _ _ b x (components_equiv E E' Q)). split.
  - intros Hax. apply same_trans_comp with a; [apply same_sym; exact Hab|exact Hax].
  - intros Hbx. apply same_trans_comp with b; assumption.
Qed.

(* the members of `net` lie in one class of N: the nets in which `cand` is asked about are of this kind *)
Definition one_class (N : list (list node)) (net : list node) : Prop := forall x y, In x net -> In y net -> same N x y.

Lemma one_class_In N net : In net N -> one_class N net.
Proof. intros H x y Hx Hy. exists net. auto. Qed.

Lemma one_class_class_of E a : one_class (components E) (class_of (components E) a).
Proof. intros x y Hx Hy. apply in_class_of in Hx, Hy. exact (same_trans_comp E x a y (same_sym _ _ _ Hx) Hy). Qed.

Lemma no_samenet_overlap_same D m r : no_samenet_overlap D = true -> same (components (edges D)) m r -> r <> m ->
  ivl_rel (adr D m) (adr D r) = false.
Proof.
  unfold no_samenet_overlap. rewrite forallb_forall. intros H [net [Hnet [Hm Hr]]] Hne.
  specialize (H net Hnet). rewrite forallb_forall in H. specialize (H m Hm). rewrite forallb_forall in H. specialize (H r Hr).
  apply Nat.eqb_neq in Hne. rewrite Hne in H. apply negb_true_iff in H. exact H.
Qed.

Lemma no_sameblk_sib_overlap_In D w1 w2 : no_sameblk_sib_overlap D = true -> In w1 (d_wr D) -> In w2 (d_wr D) ->
  Nat.eqb (w_blk w1) (w_blk w2) && sib_slices_rel (adr D (w_node w1)) (adr D (w_node w2)) = false.
Proof.
  unfold no_sameblk_sib_overlap. rewrite forallb_forall. intros H H1 H2.
  specialize (H w1 H1). rewrite forallb_forall in H. specialize (H w2 H2). apply negb_true_iff in H. exact H.
Qed.

(* the test conn_loop applies to every edge: the edge is not a self-loop and its ends stay connected without it *)
Definition loop_at (E : list edge) (e : edge) : bool :=
  negb (Nat.eqb (fst e) (snd e)) && same_b (components (remove_und (fst e) (snd e) E)) (fst e) (snd e).

Lemma conn_loop_eq E : conn_loop E = existsb (loop_at E) E.
Proof. reflexivity. Qed.

Lemma loop_at_swap E a b : loop_at E (a, b) = loop_at E (b, a).
Proof. unfold loop_at. cbn [fst snd]. rewrite (Nat.eqb_sym a b), (remove_und_sym a b E), same_b_sym. reflexivity. Qed.

Lemma loop_at_eqv E E' e : edges_equiv E E' -> loop_at E e = loop_at E' e.
Proof. intros Q. unfold loop_at. f_equal. apply same_b_equiv. apply remove_und_equiv. exact Q. Qed.

Lemma conn_loop_incl E E' : edges_equiv E E' -> conn_loop E = true -> conn_loop E' = true.
Proof.
  intros Q. rewrite !conn_loop_eq. apply (existsb_und swap).
  - intros [a b] H. exact (proj1 (Q a b) (or_introl H)).
  - intros [a b] _. unfold swap. cbn [fst snd]. rewrite (loop_at_swap E' b a), (loop_at_eqv E E' (a, b) Q). split; reflexivity.
Qed.

Lemma conn_loop_eqv E E' : edges_equiv E E' -> conn_loop E = conn_loop E'.
Proof. intros Q. apply eq_true_iff_eq. split; apply conn_loop_incl; [exact Q|apply edges_equiv_sym; exact Q]. Qed.

(* the decision is the first of the admissible alternatives: elaboration stops at the first failing check stage, and
   within a stage the alternatives are listed in the order in which defect_with tests them *)
Lemma defect_with_hd O D : defect_with O D = hd_error (defect_alts O D).
Proof.
  unfold defect_with, defect_alts, op_defect, op_alts, flag.
  destruct (existsb _ (d_wr D)); [reflexivity|]. destruct (existsb _ (d_wr D)); [reflexivity|].
  destruct (existsb _ (d_wr D)); [reflexivity|]. cbn [app].
  destruct (conn_loop (edges D)); [reflexivity|]. cbv zeta.
  destruct (net_multi _ _ _ _ || blk_multi _ _); [reflexivity|]. destruct (port_upblk D); [reflexivity|].
  destruct (net_none _ _ _ _); [reflexivity|].
  destruct (existsb _ (d_conn D)); [reflexivity|]. destruct (existsb _ (d_conn D)); reflexivity.
Qed.

(* the admissible alternatives: empty exactly when the decision accepts, and they contain the decision *)
Theorem defect_alts_spec O D :
  (defect_with O D = None <-> defect_alts O D = []) /\ (forall d, defect_with O D = Some d -> In d (defect_alts O D)).
Proof.
  rewrite defect_with_hd. destruct (defect_alts O D) as [|d0 l]; cbn [hd_error].
  - split; [split; reflexivity|discriminate].
  - split; [split; discriminate|]. intros d H. inversion H. left. reflexivity.
Qed.

Lemma design_equiv_refl D : design_equiv D D.
Proof. unfold design_equiv, conn_equiv. repeat split; tauto. Qed.

Section Equiv.
Variables (O : opts) (D D' : design).
Hypothesis HE : design_equiv D D'.

Let Hp : d_par D = d_par D' := proj1 HE.
Let Hs : d_sigs D = d_sigs D' := proj1 (proj2 HE).
Let Hw : same_elts (d_wr D) (d_wr D') := proj1 (proj2 (proj2 HE)).
Let Hr : same_elts (d_rd D) (d_rd D') := proj1 (proj2 (proj2 (proj2 HE))).
Let Hc : conn_equiv (d_conn D) (d_conn D') := proj2 (proj2 (proj2 (proj2 HE))).

Lemma kind_eq n : kind D n = kind D' n. Proof. unfold kind, sig. rewrite Hs. reflexivity. Qed.
Lemma host_eq n : host D n = host D' n. Proof. unfold host, sig. rewrite Hs. reflexivity. Qed.
Lemma adr_eq n : adr D n = adr D' n. Proof. unfold adr, sig. rewrite Hs. reflexivity. Qed.
Lemma parent_eq c : parent D c = parent D' c. Proof. unfold parent. rewrite Hp. reflexivity. Qed.

Lemma op_alts_eq : op_alts D = op_alts D'.
Proof.
  unfold op_alts. f_equal; [|f_equal]; f_equal.
  - apply existsb_cong; [exact Hw|reflexivity].
  - apply existsb_cong; [exact Hw|]. intros w _. rewrite adr_eq. reflexivity.
  - apply existsb_cong; [exact Hw|reflexivity].
Qed.

Lemma edges_eqv : edges_equiv (edges D) (edges D').
Proof.
  intros a b. unfold edges. rewrite !in_edges_und. split; intros [h H]; exists h; apply (Hc a b h); exact H.
Qed.

Lemma nets_eqv : parts_equiv (components (edges D)) (components (edges D')).
Proof. apply components_equiv. exact edges_eqv. Qed.

Lemma base_eqv : same_elts (base D) (base D').
Proof.
  unfold base, all_nodes. apply same_elts_app.
  - intros x. rewrite !in_map_iff. split; intros [w [E H]]; exists w; (split; [exact E|apply Hw; exact H]).
  - rewrite Hs. intros x. rewrite !filter_In, kind_eq, host_eq. tauto.
Qed.

Lemma cand_cong R R' net net' m : same_elts R R' -> set_eq net net' -> cand O D R net m = cand O D' R' net' m.
Proof.
  intros HR Hn. unfold cand. rewrite kind_eq. f_equal; [f_equal|].
  - apply existsb_cong; [exact base_eqv|]. intros d _. rewrite !adr_eq. reflexivity.
  - apply existsb_cong; [exact HR|]. intros r _. rewrite !adr_eq, (memn_set_eq r net net' Hn). reflexivity.
Qed.

Lemma blk_multi_eq : blk_multi O D = blk_multi O D'.
Proof.
  unfold blk_multi. apply existsb_cong; [exact Hw|]. intros w1 _. apply existsb_cong; [exact Hw|]. intros w2 _.
  rewrite !adr_eq. reflexivity.
Qed.

Lemma port_upblk_eq : port_upblk D = port_upblk D'.
Proof.
  unfold port_upblk. f_equal.
  - apply existsb_cong; [exact Hr|]. intros r _. rewrite kind_eq, host_eq. reflexivity.
  - apply existsb_cong; [exact Hw|]. intros w _. rewrite kind_eq, !host_eq, parent_eq. reflexivity.
Qed.

Lemma edge_defect_eq u v h : edge_defect D u v h = edge_defect D' u v h.
Proof. unfold edge_defect. rewrite !kind_eq, !host_eq, !parent_eq. reflexivity. Qed.

End Equiv.

(* the checks that ask for driver candidates agree for two option sets and two descriptions of a design, if `cand` does
   on the members of every net that lies in one class *)
Section Agree.
Variables (O O' : opts) (D D' : design).
Hypothesis HE : design_equiv D D'.
Let N := components (edges D).
Let N' := components (edges D').
Hypothesis Hcand : forall R R' net net' m, same_elts R R' -> set_eq net net' -> one_class N net -> In m net ->
  cand O D R net m = cand O' D' R' net' m.
Hypothesis Hblk : blk_multi O D = blk_multi O' D'.

Lemma has_cand_agree R R' net net' : same_elts R R' -> set_eq net net' -> In net N ->
  existsb (cand O D R net) net = existsb (cand O' D' R' net') net'.
Proof.
  intros HR Hn Hnet. apply existsb_cong; [exact Hn|]. intros m Hm.
  apply Hcand; [exact HR|exact Hn|apply one_class_In; exact Hnet|exact Hm].
Qed.

Lemma two_cands_agree R R' net net' : same_elts R R' -> set_eq net net' -> In net N ->
  two_cands O D R net = two_cands O' D' R' net'.
Proof.
  intros HR Hn Hnet. pose proof (one_class_In _ _ Hnet) as H1. unfold two_cands.
  apply existsb_cong; [exact Hn|]. intros m1 Hm1.
  rewrite (Hcand R R' net net' m1 HR Hn H1 Hm1). f_equal.
  apply existsb_cong; [exact Hn|]. intros m2 Hm2. rewrite (Hcand R R' net net' m2 HR Hn H1 Hm2). reflexivity.
Qed.

Lemma fresh_agree R R' : same_elts R R' -> same_elts (fresh O D N R) (fresh O' D' N' R').
Proof.
  intros HR x. rewrite !in_fresh. apply ex_parts; [exact (nets_eqv D D' HE)|]. intros net net' Hnet Hse.
  rewrite (has_cand_agree R R' net net' HR Hse Hnet), (memn_set_eq x R R' HR), <- (Hse x).
  pose proof (one_class_In _ _ Hnet) as H1.
  split; intros (Hh & Hx & Hc & Hm); (split; [exact Hh|]); (split; [exact Hx|]); (split; [|exact Hm]).
  - rewrite <- (Hcand R R' net net' x HR Hse H1 Hx). exact Hc.
  - rewrite (Hcand R R' net net' x HR Hse H1 Hx). exact Hc.
Qed.

Lemma iter_agree n : forall R R', same_elts R R' -> same_elts (iter O D N n R) (iter O' D' N' n R').
Proof.
  induction n as [|k IH]; intros R R' HR; cbn [iter]; [exact HR|].
  pose proof (fresh_agree R R' HR) as HF.
  destruct (fresh O D N R) as [|f F], (fresh O' D' N' R') as [|f' F'].
  - exact HR.
  - destruct (proj2 (HF f') (or_introl eq_refl)).
  - destruct (proj1 (HF f) (or_introl eq_refl)).
  - apply IH. apply same_elts_app; assumption.
Qed.

(* both sides run the same number of rounds, d_sigs being shared; nothing here needs that number to be enough *)
Lemma driven_final_agree : same_elts (driven_final O D N) (driven_final O' D' N').
Proof. unfold driven_final. rewrite (proj1 (proj2 HE)). apply iter_agree. apply same_elts_refl. Qed.

Lemma net_multi_agree R R' : same_elts R R' -> net_multi O D N R = net_multi O' D' N' R'.
Proof.
  intros HR. unfold net_multi. apply existsb_parts; [exact (nets_eqv D D' HE)|]. intros c c' Hc Hse.
  apply two_cands_agree; assumption.
Qed.

Lemma net_none_agree R R' : same_elts R R' -> net_none O D N R = net_none O' D' N' R'.
Proof.
  intros HR. unfold net_none. apply existsb_parts; [exact (nets_eqv D D' HE)|]. intros c c' Hc Hse. f_equal.
  apply has_cand_agree; assumption.
Qed.

Lemma on_side_agree R R' C1 C2 a b x : same_elts R R' -> same N a b -> (forall w, same_b C1 w x = same_b C2 w x) ->
  on_side O D N R C1 a x = on_side O' D' N' R' C2 b x.
Proof.
  intros HR Hab HC. unfold on_side. pose proof (class_of_comp_eqv _ _ a b (edges_eqv D D' HE) Hab) as Hcl.
  apply existsb_cong; [exact Hcl|]. intros w Hw.
  rewrite (Hcand R R' (class_of N a) _ w HR Hcl (one_class_class_of _ a) Hw), HC. reflexivity.
Qed.

(* a connect statement between two members of one net is judged alike in both descriptions, whichever way it is written.
   In conn_viol the first node argument of on_side only selects the net, so it may be a or b alike; direction enters
   through the last argument and the order in which edge_defect gets the two ends *)
Lemma conn_viol_agree R R' k a b h : same_elts R R' -> same N a b ->
  conn_viol O D N R k (mkC a b h) = conn_viol O' D' N' R' k (mkC a b h) /\
  conn_viol O D N R k (mkC a b h) = conn_viol O' D' N' R' k (mkC b a h).
Proof.
  intros HR Hab.
  pose proof (same_trans_comp _ a b a Hab (same_sym _ _ _ Hab)) as Haa.
  assert (HC : forall w x, same_b (components (remove_und a b (edges D))) w x = same_b (components (remove_und a b (edges D'))) w x).
  { intros w x. apply same_b_equiv. apply remove_und_equiv. exact (edges_eqv D D' HE). }
  unfold conn_viol. cbn [c_a c_b c_host]. split.
  - rewrite (on_side_agree R R' _ _ a a a HR Haa (fun w => HC w a)), (on_side_agree R R' _ _ a a b HR Haa (fun w => HC w b)).
    rewrite !(edge_defect_eq D D' HE). reflexivity.
  - rewrite (remove_und_sym b a (edges D')).
    rewrite (on_side_agree R R' _ _ a b a HR Hab (fun w => HC w a)), (on_side_agree R R' _ _ a b b HR Hab (fun w => HC w b)).
    rewrite !(edge_defect_eq D D' HE). apply orb_comm.
Qed.

Lemma conn_viol_exists_agree R R' k : same_elts R R' ->
  existsb (conn_viol O D N R k) (d_conn D) = existsb (conn_viol O' D' N' R' k) (d_conn D').
Proof.
  intros HR. pose proof HE as (_ & _ & _ & _ & Hc).
  apply eq_true_iff_eq. split; apply (existsb_und cswap).
  - intros [a b h] Hin. exact (proj1 (Hc a b h) (or_introl Hin)).
  - intros [a b h] Hin. apply conn_viol_agree; [exact HR|exact (conn_same D a b h Hin)].
  - intros [a b h] Hin. exact (proj2 (Hc a b h) (or_introl Hin)).
  - intros [a b h] Hin. assert (Sab : same N a b).
    { destruct (proj2 (Hc a b h) (or_introl Hin)) as [H|H]; [|apply same_sym]; exact (conn_same D _ _ h H). }
    split; symmetry.
    + exact (proj1 (conn_viol_agree R R' k a b h HR Sab)).
    + exact (proj2 (conn_viol_agree R R' k b a h HR (same_sym _ _ _ Sab))).
Qed.

Theorem defect_alts_agree : defect_alts O D = defect_alts O' D'.
Proof.
  unfold defect_alts.
  rewrite (op_alts_eq D D' HE). destruct (op_alts D'); [|reflexivity].
  rewrite (conn_loop_eqv _ _ (edges_eqv D D' HE)). destruct (conn_loop (edges D')); [reflexivity|].
  cbv zeta. fold N N'. pose proof driven_final_agree as HR.
  rewrite (net_multi_agree _ _ HR), Hblk, (port_upblk_eq D D' HE), (net_none_agree _ _ HR),
          (conn_viol_exists_agree _ _ is_portrule HR), (conn_viol_exists_agree _ _ is_invalidconn HR).
  reflexivity.
Qed.

End Agree.

Theorem defect_alts_equiv_indep O D D' : design_equiv D D' -> defect_alts O D = defect_alts O D'.
Proof.
  intros HE. apply (defect_alts_agree O O D D' HE).
  - intros R R' net net' m HR Hn _ _. apply cand_cong; assumption.
  - apply blk_multi_eq. exact HE.
Qed.

Theorem defect_equiv_indep O D D' : design_equiv D D' -> defect_with O D = defect_with O D'.
Proof. intros HE. rewrite !defect_with_hd, (defect_alts_equiv_indep O D D' HE). reflexivity. Qed.

Lemma cswap_eq c a b h : cswap c = mkC a b h <-> c = mkC b a h.
Proof. destruct c as [x y g]. unfold cswap. cbn [c_a c_b c_host]. split; intros H; inversion H; reflexivity. Qed.

Lemma cflip_conn_equiv : forall C bs, conn_equiv C (cflip_some bs C).
Proof.
  induction C as [|c r IH]; intros bs a b h; cbn [cflip_some]; [tauto|].
  rewrite !in2_cons, <- (IH (tl bs) a b h). apply or_iff_compat_r.
  destruct bs as [|[|] bs']; [reflexivity|rewrite !cswap_eq; apply or_comm|reflexivity].
Qed.

Theorem defect_order_indep O par sigs wr wr' rd rd' cn cn' bs :
  Permutation wr' wr -> Permutation rd' rd -> Permutation cn' (cflip_some bs cn) ->
  defect_with O (mkD par sigs wr rd cn) = defect_with O (mkD par sigs wr' rd' cn').
Proof.
  intros Pw Pr Pc. apply defect_equiv_indep. unfold design_equiv. cbn [d_par d_sigs d_wr d_rd d_conn].
  split; [reflexivity|]. split; [reflexivity|].
  split; [apply same_elts_sym; apply perm_same_elts; exact Pw|]. split; [apply same_elts_sym; apply perm_same_elts; exact Pr|].
  intros a b h. rewrite (cflip_conn_equiv cn bs a b h).
  pose proof (perm_same_elts _ _ Pc) as L. rewrite (L (mkC a b h)), (L (mkC b a h)). tauto.
Qed.

Corollary bit_level_defect_order_indep par sigs wr wr' rd rd' cn cn' bs :
  Permutation wr' wr -> Permutation rd' rd -> Permutation cn' (cflip_some bs cn) ->
  bit_level_defect (mkD par sigs wr rd cn) = bit_level_defect (mkD par sigs wr' rd' cn').
Proof. apply defect_order_indep. Qed.

(* one update block (id 0, host 0) writes s.x[0:5] and s.x[3:8] of an 8-bit wire: every bit has one driver (that block),
   the bit-level decision accepts, the faithful model of _check_upblk_writes reports MultiWriter (finding F6 of DESIGN.md:
   the second disjunct of blk_multi fires, which o_sameblk_slices guards and bitlevel switches off) *)
Definition f6_design : design :=
  mkD [None]
      [mkSig PWire 0%nat (mkAddr 1%nat 8%Z [Slc 0%Z 5%Z]); mkSig PWire 0%nat (mkAddr 1%nat 8%Z [Slc 3%Z 8%Z])]
      [mkW 0%nat 0%nat false 0%nat OpAt; mkW 0%nat 0%nat false 1%nat OpAt] [] [].

Theorem elab_complete_refuted :
  wf_design_addrs f6_design = true /\ bit_level_defect f6_design = None /\ elab_model f6_design = Some MultiWriter.
Proof. vm_compute. repeat split. Qed.

Theorem walk_iff_perbit a b : wf_addr a = true -> wf_addr b = true -> compat a b = true ->
  (walk_rel a b = true <-> exists v, in_ivl v (ivl_of a) = true /\ in_ivl v (ivl_of b) = true).
Proof. exact (walk_iff_shared_bit a b). Qed.

(* in a design whose address universe is well-formed the structural walk and bit overlap agree on every two objects *)
Theorem walk_eq_overlap_design D n m : wf_design_addrs D = true ->
  walk_rel (adr D n) (adr D m) = ivl_rel (adr D n) (adr D m).
Proof.
  unfold wf_design_addrs. intros W.
  assert (G : forall k, In (adr D k) (s_addr dflt_sig :: map s_addr (d_sigs D))).
  { intros k. unfold adr, sig. destruct (nth_in_or_default k (d_sigs D) dflt_sig) as [Hin|Hd].
    - right. apply in_map. exact Hin.
    - left. rewrite Hd. reflexivity. }
  apply (walk_iff_overlap_universe _ _ _ W); apply G.
Qed.

(* the faithful model of the implementation's checks coincides with the bit-level decision on every well-formed design
   that avoids its two deviations: no update block writes two overlapping sibling slices, and no net has two distinct
   overlapping members *)
Section Opts.
Variable D : design.
Hypothesis W : wf_design_addrs D = true.

Lemma cand_opts R net m : no_samenet_overlap D = true -> one_class (components (edges D)) net -> In m net ->
  cand faithful D R net m = cand bitlevel D R net m.
Proof.
  intros HN H1 Hm. unfold cand. cbn [o_rel o_samenet_overlap faithful bitlevel].
  f_equal; [f_equal|].
  - apply existsb_ext_in. intros d _. apply walk_eq_overlap_design. exact W.
  - apply existsb_ext_in. intros r _. rewrite (walk_eq_overlap_design D m r W).
    destruct (Nat.eqb_spec r m) as [->|Hne].
    + rewrite (proj2 (memn_In m net) Hm). reflexivity.
    + destruct (memn r net) eqn:Mr; [|reflexivity]. apply memn_In in Mr.
      rewrite (no_samenet_overlap_same D m r HN (H1 m r Hm Mr) Hne). reflexivity.
Qed.

Lemma blk_multi_opts : no_sameblk_sib_overlap D = true -> blk_multi faithful D = blk_multi bitlevel D.
Proof.
  intros HB. unfold blk_multi. cbn [o_rel o_sameblk_slices faithful bitlevel].
  apply existsb_ext_in. intros w1 H1. apply existsb_ext_in. intros w2 H2.
  rewrite (walk_eq_overlap_design D _ _ W). cbn [andb]. rewrite (no_sameblk_sib_overlap_In D w1 w2 HB H1 H2). reflexivity.
Qed.

Theorem elab_iff_partial :
  no_sameblk_sib_overlap D = true -> no_samenet_overlap D = true -> elab_model D = bit_level_defect D.
Proof.
  intros HB HN. unfold elab_model, bit_level_defect. rewrite !defect_with_hd. apply f_equal.
  apply (defect_alts_agree faithful bitlevel D D (design_equiv_refl D)).
  - intros R R' net net' m HR Hn H1 Hm. rewrite (cand_opts R net m HN H1 Hm).
    apply cand_cong; [apply design_equiv_refl|exact HR|exact Hn].
  - apply blk_multi_opts. exact HB.
Qed.

End Opts.
