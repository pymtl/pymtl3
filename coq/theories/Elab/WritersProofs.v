(* Elab/WritersProofs.v — the driver set of a net is a function of the net as a set (hence independent of the order
   and orientation of the connect statements); soundness of the acceptors writer_ok / net_disjoint_ok; what running
   an accepted net block does to the bit environment.  No axioms. *)
From Coq Require Import ZArith List Bool Arith Lia ZifyBool Permutation.
Import ListNotations.
From PV Require Import Sched.Accept Elab.Nets Elab.NetsProofs Elab.Writers.

Lemma disjoint_not_in a b v : ivl_overlap a b = false -> in_ivl v a = true -> in_ivl v b = false.
Proof.
  intros H Ha. apply not_true_iff_false. intros Hb. rewrite (ivl_overlap_intro v a b Ha Hb) in H. discriminate.
Qed.

Lemma ivl_overlap_sym a b : ivl_overlap a b = ivl_overlap b a.
Proof. unfold ivl_overlap. lia. Qed.

Lemma in_ivl_self r k : (0 <= k < ihi r - ilo r)%Z -> in_ivl (iroot r, (ilo r + k)%Z) r = true.
Proof. intros H. apply in_ivl_spec. cbn [fst snd]. lia. Qed.

Theorem drivers_member tbl D net m : In m (drivers tbl D net) <-> In m net /\ legit tbl D m = true.
Proof. unfold drivers. apply filter_In. Qed.

Theorem drivers_set_fun tbl D c c' : set_eq c c' -> set_eq (drivers tbl D c) (drivers tbl D c').
Proof. intros H x. rewrite !drivers_member, (H x). reflexivity. Qed.

(* two statement lists that describe the same undirected graph give the same nets with the same drivers *)
Theorem drivers_edge_order_indep tbl D E E' : edges_equiv E E' ->
  forall c, In c (components E) ->
  exists c', In c' (components E') /\ set_eq c c' /\ set_eq (drivers tbl D c) (drivers tbl D c').
Proof.
  intros Q c Hc. destruct (proj1 (components_equiv E E' Q) c Hc) as [c' [Hc' Hs]].
  exists c'. split; [exact Hc'|]. split; [exact Hs|]. apply drivers_set_fun. exact Hs.
Qed.

Theorem drivers_perm_flip_indep tbl D E E' bs : Permutation E' (flip_some bs E) ->
  forall c, In c (components E) ->
  exists c', In c' (components E') /\ set_eq c c' /\ set_eq (drivers tbl D c) (drivers tbl D c').
Proof. intros P. apply drivers_edge_order_indep. exact (perm_flip_edges_equiv E E' bs P). Qed.

Lemma legit_true tbl D m :
  legit tbl D m = true <-> const_n tbl m = true \/ exists d, In d D /\ ivl_overlap (ivl_n tbl m) d = true.
Proof. unfold legit. rewrite orb_true_iff. apply or_iff_compat_l. apply existsb_exists. Qed.

Lemma legit_mono tbl D D' m : (forall d, In d D -> In d D') -> legit tbl D m = true -> legit tbl D' m = true.
Proof.
  rewrite !legit_true. intros Hs [H|[d [Hd Ho]]]; [left; exact H|right].
  exists d. split; [apply Hs; exact Hd|exact Ho].
Qed.

Lemma legit_false tbl D m : legit tbl D m = false ->
  const_n tbl m = false /\ forall d, In d D -> ivl_overlap (ivl_n tbl m) d = false.
Proof.
  unfold legit. intros H. apply orb_false_elim in H. destruct H as [Hc He]. split; [exact Hc|].
  intros d Hd. apply not_true_iff_false. intros Ho.
  enough (existsb (ivl_overlap (ivl_n tbl m)) D = true) by congruence. apply existsb_exists. exists d. auto.
Qed.

Lemma in_reader_ivls tbl w net d : In d (reader_ivls tbl (w, net)) <-> exists r, In r net /\ r <> w /\ d = ivl_n tbl r.
Proof.
  unfold reader_ivls, readers. cbn [fst snd]. rewrite in_map_iff. split.
  - intros [r [<- Hr]]. apply filter_In in Hr. destruct Hr as [Hr Hn]. exists r. split; [exact Hr|]. split; [|reflexivity].
    apply Nat.eqb_neq. apply negb_true_iff. exact Hn.
  - intros [r [Hr [Hn ->]]]. exists r. split; [reflexivity|]. apply filter_In. split; [exact Hr|].
    apply negb_true_iff. apply Nat.eqb_neq. exact Hn.
Qed.

(* obs is the still unprocessed suffix of the full list `all`; the accumulator D of wr_chain only ever holds intervals
   that are driven in the sense of `all` *)
Lemma wr_chain_sound tbl D0 all : forall obs D,
  wr_chain tbl D obs = true ->
  (forall d, In d D -> driven tbl D0 all d) ->
  (forall wn, In wn obs -> In wn all) ->
  forall w net, In (w, net) obs -> In w net /\ justified tbl D0 all w.
Proof.
  induction obs as [|[w0 n0] rest IH]; intros D H HD Hsub w net Hin; [destruct Hin|].
  cbn [wr_chain fst snd] in H. apply andb_prop in H. destruct H as [H H3]. apply andb_prop in H. destruct H as [H1 H2].
  assert (J0 : justified tbl D0 all w0).
  { apply legit_true in H2. destruct H2 as [H2|[d [Hd Ho]]]; [left; exact H2|right].
    exists d. split; [apply HD; exact Hd|exact Ho]. }
  destruct Hin as [Heq|Hin].
  - inversion Heq; subst. split; [apply memn_In; exact H1|exact J0].
  - apply (IH (D ++ reader_ivls tbl (w0, n0)) H3); [| |exact Hin].
    + intros d Hd. apply in_app_or in Hd. destruct Hd as [Hd|Hd]; [apply HD; exact Hd|].
      apply in_reader_ivls in Hd. destruct Hd as [r [Hr [Hn ->]]].
      assert (Hall : In (w0, n0) all) by (apply Hsub; left; reflexivity).
      destruct J0 as [Jc|[d [Jd Jo]]].
      * exact (dr_const tbl D0 all w0 n0 r Hall Hr Hn Jc).
      * exact (dr_prop tbl D0 all w0 n0 r d Hall Hr Hn Jd Jo).
    + intros wn Hwn. apply Hsub. right. exact Hwn.
Qed.

Lemma excl_ok_nth tbl D0 obs i w net m : excl_ok tbl D0 obs = true -> nth_error obs i = Some (w, net) ->
  In m net -> m <> w -> legit tbl (ext_drive tbl D0 obs i) m = false.
Proof.
  unfold excl_ok, excl_at. intros H Hi Hm Hne. rewrite forallb_forall in H.
  assert (Hseq : In i (seq 0 (length obs))).
  { apply in_seq. split; [apply Nat.le_0_l|]. apply nth_error_Some. rewrite Hi. discriminate. }
  specialize (H i Hseq). rewrite (nth_error_nth obs i (0%nat, []) Hi) in H. cbn [fst snd] in H.
  rewrite forallb_forall in H. specialize (H m Hm). apply orb_prop in H. destruct H as [H|H].
  - apply Nat.eqb_eq in H. contradiction.
  - apply negb_true_iff. exact H.
Qed.

(* the writer pymtl3 named is a member of its net, is a legitimate driver (constant, or it shares a bit with something
   driven, where "driven" is the least fixed point generated by the base drivers and the reader sides of justified
   nets), and no other member of the net is a constant or touches anything driven from outside the net.
   The conjuncts wf_fp D0 and wf_members of writer_ok are not used: no statement depends on them *)
Theorem writer_ok_sound tbl D0 obs : writer_ok tbl D0 obs = true ->
  forall i w net, nth_error obs i = Some (w, net) ->
    In w net /\
    justified tbl D0 obs w /\
    (forall m, In m net -> m <> w ->
       const_n tbl m = false /\ forall d, In d (ext_drive tbl D0 obs i) -> ivl_overlap (ivl_n tbl m) d = false) /\
    (forall m, In m (drivers tbl (ext_drive tbl D0 obs i) net) -> m = w).
Proof.
  unfold writer_ok. intros H i w net Hi.
  apply andb_prop in H. destruct H as [H H4]. apply andb_prop in H. destruct H as [_ H3].
  destruct (wr_chain_sound tbl D0 obs obs D0 H3 (dr_base tbl D0 obs) (fun wn H => H) w net (nth_error_In obs i Hi))
    as [Hw Hj].
  split; [exact Hw|]. split; [exact Hj|]. split.
  - intros m Hm Hne. apply legit_false. exact (excl_ok_nth tbl D0 obs i w net m H4 Hi Hm Hne).
  - intros m Hm. apply drivers_member in Hm. destruct Hm as [Hm Hl].
    destruct (Nat.eq_dec m w) as [->|Hne]; [reflexivity|].
    rewrite (excl_ok_nth tbl D0 obs i w net m H4 Hi Hm Hne) in Hl. discriminate.
Qed.

(* bit-level reading of the exclusivity part: a non-writer member shares no bit with anything driven outside its net *)
Theorem writer_ok_no_shared_bit tbl D0 obs : writer_ok tbl D0 obs = true ->
  forall i w net, nth_error obs i = Some (w, net) ->
  forall m, In m net -> m <> w ->
  forall d, In d (ext_drive tbl D0 obs i) ->
  ~ exists v, in_ivl v (ivl_n tbl m) = true /\ in_ivl v d = true.
Proof.
  intros H i w net Hi m Hm Hne d Hd [v [Hvm Hvd]].
  destruct (writer_ok_sound tbl D0 obs H i w net Hi) as [_ [_ [Hx _]]].
  destruct (Hx m Hm Hne) as [_ Ho]. specialize (Ho d Hd).
  rewrite (ivl_overlap_intro v _ _ Hvm Hvd) in Ho. discriminate.
Qed.

Lemma pairwise_disjoint_sound l : pairwise_disjoint l = true -> ForallOrdPairs (fun a b => ivl_overlap a b = false) l.
Proof.
  induction l as [|a r IH]; cbn [pairwise_disjoint]; intros H; [constructor|].
  apply andb_prop in H. destruct H as [H1 H2]. constructor; [|apply IH; exact H2].
  rewrite forallb_forall in H1. apply Forall_forall. intros b Hb. specialize (H1 b Hb). apply negb_true_iff in H1. exact H1.
Qed.

Lemma ivl_eqb_spec a b : ivl_eqb a b = true <-> a = b.
Proof.
  unfold ivl_eqb, iroot, ilo, ihi. destruct a as [[ra la] ha], b as [[rb lb] hb]. cbn [fst snd].
  rewrite !andb_true_iff, Nat.eqb_eq, !Z.eqb_eq. split.
  - intros [[-> ->] ->]. reflexivity.
  - intros H. inversion H. auto.
Qed.

Lemma dedup_ivl_in l x : In x (dedup_ivl l) <-> In x l.
Proof.
  induction l as [|a r IH]; cbn [dedup_ivl]; [tauto|].
  destruct (existsb (ivl_eqb a) r) eqn:E.
  - rewrite IH. split; [intros H; right; exact H|]. intros [<-|H]; [|exact H].
    apply existsb_exists in E. destruct E as [y [Hy He]]. apply ivl_eqb_spec in He. subst y. exact Hy.
  - cbn [In]. rewrite IH. tauto.
Qed.

(* inside one accepted net two readers denote either exactly the same bits or disjoint bits: no bit receives two
   different writer bits *)
Theorem net_disjoint_ok_sound tbl obs : net_disjoint_ok tbl obs = true ->
  forall wn, In wn obs -> ForallOrdPairs (fun a b => ivl_overlap a b = false) (net_readers tbl wn).
Proof.
  unfold net_disjoint_ok, net_shape_ok. intros H wn Hin. rewrite forallb_forall in H. apply pairwise_disjoint_sound.
  specialize (H wn Hin). apply andb_prop in H. exact (proj1 H).
Qed.

Lemma run_net_frame w : forall rs e v, (forall r, In r rs -> in_ivl v r = false) -> run_net w rs e v = e v.
Proof.
  induction rs as [|r rs IH]; intros e v H; cbn [run_net fold_left]; [reflexivity|].
  change (run_net w rs (copy_ivl w r e) v = e v). rewrite IH by (intros r' Hr'; apply H; right; exact Hr').
  unfold copy_ivl. rewrite (H r (or_introl eq_refl)). reflexivity.
Qed.

Lemma run_net_writer w rs e v : Forall (fun r => ivl_overlap w r = false) rs -> in_ivl v w = true ->
  run_net w rs e v = e v.
Proof.
  intros Hw Hv. apply run_net_frame. intros r Hr. rewrite Forall_forall in Hw. exact (disjoint_not_in w r v (Hw r Hr) Hv).
Qed.

(* bit k of a reader receives bit k of the writer when its turn comes, and is never touched again *)
Lemma run_net_reader w : forall rs e,
  Forall (fun r => ivl_overlap w r = false) rs -> ForallOrdPairs (fun a b => ivl_overlap a b = false) rs ->
  forall r k, In r rs -> (0 <= k < ihi r - ilo r)%Z -> in_ivl (iroot w, (ilo w + k)%Z) w = true ->
  run_net w rs e (iroot r, (ilo r + k)%Z) = e (iroot w, (ilo w + k)%Z).
Proof.
  induction rs as [|r0 rs IH]; intros e Hw Hp r k Hr Hk Hwk; [destruct Hr|].
  inversion Hw as [|? ? Hw0 Hw']; subst. inversion Hp as [|? ? Hp0 Hp']; subst.
  change (run_net w (r0 :: rs) e) with (run_net w rs (copy_ivl w r0 e)).
  destruct Hr as [<-|Hr].
  - rewrite run_net_frame.
    + unfold copy_ivl. rewrite (in_ivl_self r0 k Hk). cbn [fst snd]. f_equal. f_equal. lia.
    + intros r' Hr'. rewrite Forall_forall in Hp0. exact (disjoint_not_in r0 r' _ (Hp0 r' Hr') (in_ivl_self r0 k Hk)).
  - rewrite (IH (copy_ivl w r0 e) Hw' Hp' r k Hr Hk Hwk).
    unfold copy_ivl. rewrite (disjoint_not_in w r0 _ Hw0 Hwk). reflexivity.
Qed.

(* if the readers of a net denote pairwise disjoint bits, none of which belongs to the writer, and no reader is wider than
   the writer, then after the net block has run every reader carries the writer's value and the writer is unchanged
   (the hypotheses do not depend on the order of rs, ivl_overlap being symmetric, so neither does the conclusion) *)
Theorem net_values w : forall rs e,
  Forall (fun r => ivl_overlap w r = false) rs ->
  Forall (fun r => (ihi r - ilo r <= ihi w - ilo w)%Z) rs ->
  ForallOrdPairs (fun a b => ivl_overlap a b = false) rs ->
  (forall v, in_ivl v w = true -> run_net w rs e v = e v) /\
  (forall r, In r rs -> carries w r (run_net w rs e)).
Proof.
  intros rs e Hw Hwd Hp. split; [intros v; apply run_net_writer; exact Hw|].
  intros r Hr k Hk.
  assert (Hwk : in_ivl (iroot w, (ilo w + k)%Z) w = true).
  { apply in_ivl_self. rewrite Forall_forall in Hwd. specialize (Hwd r Hr). lia. }
  rewrite (run_net_writer w rs e _ Hw Hwk). apply run_net_reader; assumption.
Qed.

(* the acceptor's shape check gives the hypotheses of net_values: in an accepted net with a signal (non-constant) writer,
   running the net block makes every reader carry the writer's value and leaves the writer untouched *)
Theorem net_values_accepted tbl obs : net_disjoint_ok tbl obs = true ->
  forall w net, In (w, net) obs -> const_n tbl w = false -> forall e,
  (forall v, in_ivl v (ivl_n tbl w) = true -> run_net (ivl_n tbl w) (net_readers tbl (w, net)) e v = e v) /\
  (forall r, In r (reader_ivls tbl (w, net)) -> carries (ivl_n tbl w) r (run_net (ivl_n tbl w) (net_readers tbl (w, net)) e)).
Proof.
  intros H w net Hin Hc e. pose proof (net_disjoint_ok_sound tbl obs H (w, net) Hin) as Hp.
  unfold net_disjoint_ok, net_shape_ok in H. rewrite forallb_forall in H. specialize (H (w, net) Hin).
  apply andb_prop in H. destruct H as [_ H]. cbn [fst] in H. rewrite Hc in H. cbn [orb] in H. rewrite forallb_forall in H.
  destruct (net_values (ivl_n tbl w) (net_readers tbl (w, net)) e) as [G1 G2]; [| |exact Hp|].
  1,2: apply Forall_forall; intros r Hr; specialize (H r Hr); lia.
  split; [exact G1|]. intros r Hr. apply G2. apply dedup_ivl_in. exact Hr.
Qed.
