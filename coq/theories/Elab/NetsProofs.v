(* Elab/NetsProofs.v — `components` computes exactly the equivalence classes of the reflexive-symmetric-transitive
   closure of the edge list: the fold invariant `inv` gives soundness and the partition facts, monotonicity of `merge`
   gives completeness.  Everything about the order, orientation and repetition of edges then follows from
   `components_class`.  All statements are for arbitrary (unbounded) edge lists.  No axioms. *)
From Coq Require Import List Bool Arith Permutation.
Import ListNotations.
From PV Require Import Elab.Nets.

Lemma memn_In x l : memn x l = true <-> In x l.
Proof.
  unfold memn. rewrite existsb_exists. split.
  - intros [y [Hy He]]. apply Nat.eqb_eq in He. subst. exact Hy.
  - intros H. exists x. split; [exact H|apply Nat.eqb_refl].
Qed.

Lemma memn_false x l : memn x l = false <-> ~ In x l.
Proof. rewrite <- memn_In. symmetry. apply not_true_iff_false. Qed.

Lemma memn_set_eq x c c' : set_eq c c' -> memn x c = memn x c'.
Proof. intros H. apply eq_true_iff_eq. rewrite !memn_In. apply H. Qed.

Lemma concat_singletons l : concat (singletons l) = l.
Proof. induction l as [|x l IH]; cbn; [reflexivity|]. f_equal. exact IH. Qed.

Lemma concat_filter_perm (f : list node -> bool) p :
  Permutation (concat (filter f p) ++ concat (filter (fun c => negb (f c)) p)) (concat p).
Proof.
  induction p as [|c p IH]; cbn; [constructor|].
  destruct (f c); cbn.
  - rewrite <- app_assoc. apply Permutation_app_head. exact IH.
  - eapply Permutation_trans; [apply Permutation_app_swap_app|]. apply Permutation_app_head. exact IH.
Qed.

Lemma merge_concat_perm p e : Permutation (concat (merge p e)) (concat p).
Proof. unfold merge. cbn [concat]. apply concat_filter_perm. Qed.

Lemma merge_concat_in p e x : In x (concat (merge p e)) <-> In x (concat p).
Proof. split; apply Permutation_in; [|apply Permutation_sym]; apply merge_concat_perm. Qed.

Lemma in_nodes E x : In x (nodes E) <-> exists e, In e E /\ (x = fst e \/ x = snd e).
Proof.
  unfold nodes, ends. rewrite nodup_In, in_flat_map. split.
  - intros [e [He Hx]]. exists e. split; [exact He|]. cbn in Hx. destruct Hx as [Hx|[Hx|[]]]; auto.
  - intros [e [He Hx]]. exists e. split; [exact He|]. cbn. destruct Hx as [Hx|Hx]; auto.
Qed.

Lemma edge_in_nodes E a b : In (a, b) E -> In a (nodes E) /\ In b (nodes E).
Proof. intros H. split; apply in_nodes; exists (a, b); (split; [exact H|]); cbn; auto. Qed.

Lemma nodup_app_inv (l l' : list node) : NoDup (l ++ l') -> NoDup l' /\ forall y, In y l -> ~ In y l'.
Proof.
  induction l as [|z l IH]; cbn; intros H; [split; [exact H|intros y []]|].
  inversion H as [|? ? Hn Hnd]; subst. destruct (IH Hnd) as [H1 H2]. split; [exact H1|].
  intros y [<-|Hy]; [|apply H2; exact Hy]. intros Hin. apply Hn. apply in_or_app. right. exact Hin.
Qed.

Lemma nodup_concat_class (p : list (list node)) c d x :
  NoDup (concat p) -> In c p -> In d p -> In x c -> In x d -> c = d.
Proof.
  induction p as [|h p IH]; intros Hnd Hc Hd Hxc Hxd; [destruct Hc|].
  cbn in Hnd. destruct (nodup_app_inv h (concat p) Hnd) as [Hnd' Hdis].
  destruct Hc as [<-|Hc]; destruct Hd as [<-|Hd].
  - reflexivity.
  - exfalso. apply (Hdis x Hxc). apply in_concat. exists d. split; assumption.
  - exfalso. apply (Hdis x Hxd). apply in_concat. exists c. split; assumption.
  - apply IH; assumption.
Qed.

(* the invariant of the fold: p is a partition of `nodes E` into non-empty classes, each inside one class of `conn E` *)
Record inv (E : list edge) (p : list (list node)) : Prop := mkInv {
  inv_nodup : NoDup (concat p);
  inv_ne    : forall c, In c p -> c <> [];
  inv_cover : forall x, In x (concat p) <-> In x (nodes E);
  inv_sound : forall c x y, In c p -> In x c -> In y c -> conn E x y }.

Lemma inv_init E : inv E (singletons (nodes E)).
Proof.
  constructor.
  - rewrite concat_singletons. apply NoDup_nodup.
  - intros c Hc. unfold singletons in Hc. apply in_map_iff in Hc. destruct Hc as [x [<- _]]. discriminate.
  - intros x. rewrite concat_singletons. tauto.
  - intros c x y Hc Hx Hy. unfold singletons in Hc. apply in_map_iff in Hc. destruct Hc as [z [<- _]].
    destruct Hx as [<-|[]]. destruct Hy as [<-|[]]. apply conn_refl.
Qed.

Lemma touched_conn E p a b c x :
  inv E p -> In (a, b) E -> In c (filter (touches a b) p) -> In x c -> conn E x a.
Proof.
  intros I Hab Hc Hx. apply filter_In in Hc. destruct Hc as [Hc Ht].
  unfold touches in Ht. apply orb_prop in Ht. destruct Ht as [Ht|Ht]; apply memn_In in Ht.
  - exact (inv_sound _ _ I c x a Hc Hx Ht).
  - apply conn_trans with b; [exact (inv_sound _ _ I c x b Hc Hx Ht)|]. apply conn_sym. apply conn_edge. exact Hab.
Qed.

Lemma in_touched p a b x c : In c p -> In x c -> (x = a \/ x = b) -> In x (concat (filter (touches a b) p)).
Proof.
  intros Hc Hx Hab. apply in_concat. exists c. split; [|exact Hx]. apply filter_In. split; [exact Hc|].
  unfold touches. apply orb_true_intro. destruct Hab as [<-|<-]; [left|right]; apply memn_In; exact Hx.
Qed.

Lemma merge_inv E p a b : inv E p -> In (a, b) E -> inv E (merge p (a, b)).
Proof.
  intros I Hab. constructor.
  - apply (Permutation_NoDup (Permutation_sym (merge_concat_perm p (a, b)))). exact (inv_nodup _ _ I).
  - intros c Hc. unfold merge in Hc. cbn [fst snd] in Hc. destruct Hc as [<-|Hc].
    + pose proof (proj1 (edge_in_nodes E a b Hab)) as Ha. apply (inv_cover _ _ I) in Ha.
      apply in_concat in Ha. destruct Ha as [ca [Hca Haca]].
      intros Hnil. pose proof (in_touched p a b a ca Hca Haca (or_introl eq_refl)) as H. rewrite Hnil in H. destruct H.
    + apply filter_In in Hc. destruct Hc as [Hc _]. exact (inv_ne _ _ I c Hc).
  - intros x. rewrite merge_concat_in. exact (inv_cover _ _ I x).
  - intros c x y Hc Hx Hy. unfold merge in Hc. cbn [fst snd] in Hc. destruct Hc as [<-|Hc].
    + apply in_concat in Hx, Hy. destruct Hx as [c1 [Hc1 Hx]]. destruct Hy as [c2 [Hc2 Hy]].
      apply conn_trans with a.
      * exact (touched_conn E p a b c1 x I Hab Hc1 Hx).
      * apply conn_sym. exact (touched_conn E p a b c2 y I Hab Hc2 Hy).
    + apply filter_In in Hc. destruct Hc as [Hc _]. exact (inv_sound _ _ I c x y Hc Hx Hy).
Qed.

Lemma fold_inv E : forall E' p, incl E' E -> inv E p -> inv E (fold_left merge E' p).
Proof.
  induction E' as [|[a b] r IH]; intros p Hsub I; cbn [fold_left]; [exact I|].
  apply IH.
  - intros e He. apply Hsub. right. exact He.
  - apply merge_inv; [exact I|apply Hsub; left; reflexivity].
Qed.

Lemma same_sym p x y : same p x y -> same p y x.
Proof. intros [c [Hc [Hx Hy]]]. exists c. auto. Qed.

Lemma merge_mono p e x y : same p x y -> same (merge p e) x y.
Proof.
  intros [c [Hc [Hx Hy]]]. unfold merge. destruct (touches (fst e) (snd e) c) eqn:T.
  - exists (concat (filter (touches (fst e) (snd e)) p)). split; [left; reflexivity|].
    split; apply in_concat; exists c; (split; [apply filter_In; split; assumption|assumption]).
  - exists c. split; [right; apply filter_In; split; [exact Hc|rewrite T; reflexivity]|]. split; assumption.
Qed.

Lemma fold_mono : forall E' p x y, same p x y -> same (fold_left merge E' p) x y.
Proof.
  induction E' as [|e r IH]; intros p x y H; cbn [fold_left]; [exact H|]. apply IH. apply merge_mono. exact H.
Qed.

Lemma merge_joins p a b : In a (concat p) -> In b (concat p) -> same (merge p (a, b)) a b.
Proof.
  intros Ha Hb. apply in_concat in Ha, Hb. destruct Ha as [ca [Hca Ha]]. destruct Hb as [cb [Hcb Hb]].
  exists (concat (filter (touches a b) p)). split; [left; reflexivity|]. split.
  - exact (in_touched p a b a ca Hca Ha (or_introl eq_refl)).
  - exact (in_touched p a b b cb Hcb Hb (or_intror eq_refl)).
Qed.

Lemma fold_complete : forall E' p,
  (forall e, In e E' -> In (fst e) (concat p) /\ In (snd e) (concat p)) ->
  forall a b, In (a, b) E' -> same (fold_left merge E' p) a b.
Proof.
  induction E' as [|[a0 b0] r IH]; intros p Hin a b Hab; [destruct Hab|].
  cbn [fold_left]. destruct Hab as [Heq|Hab].
  - inversion Heq; subst. apply fold_mono. apply merge_joins; apply (Hin (a, b)); left; reflexivity.
  - apply IH; [|exact Hab]. intros e He. rewrite !merge_concat_in. apply Hin. right. exact He.
Qed.

Lemma components_inv E : inv E (components E).
Proof. unfold components. apply fold_inv; [apply incl_refl|apply inv_init]. Qed.

Lemma components_edge E a b : In (a, b) E -> same (components E) a b.
Proof.
  intros H. unfold components. apply fold_complete; [|exact H].
  intros [x y] He. rewrite concat_singletons. exact (edge_in_nodes E x y He).
Qed.

Theorem components_nonempty E c : In c (components E) -> c <> [].
Proof. exact (inv_ne _ _ (components_inv E) c). Qed.

Theorem components_nodup E : NoDup (concat (components E)).
Proof. exact (inv_nodup _ _ (components_inv E)). Qed.

Theorem components_disjoint E c d x :
  In c (components E) -> In d (components E) -> In x c -> In x d -> c = d.
Proof. apply nodup_concat_class. apply components_nodup. Qed.

Theorem components_cover E x : In x (nodes E) <-> exists c, In c (components E) /\ In x c.
Proof. rewrite <- (inv_cover _ _ (components_inv E) x). apply in_concat. Qed.

Lemma same_refl_comp E x : In x (nodes E) -> same (components E) x x.
Proof. intros Hx. apply components_cover in Hx. destruct Hx as [c [Hc Hx]]. exists c. auto. Qed.

Lemma same_trans_comp E x y z : same (components E) x y -> same (components E) y z -> same (components E) x z.
Proof.
  intros [c [Hc [Hx Hy]]] [d [Hd [Hy' Hz]]].
  assert (c = d) by (apply (components_disjoint E c d y); assumption). subst d.
  exists c. auto.
Qed.

Lemma conn_nodes E x y : conn E x y -> (In x (nodes E) <-> In y (nodes E)).
Proof.
  induction 1 as [x|a b Hab|x y _ IH|x y z _ IH1 _ IH2]; try tauto.
  destruct (edge_in_nodes E a b Hab). tauto.
Qed.

Theorem components_sound E x y : same (components E) x y -> conn E x y.
Proof. intros [c [Hc [Hx Hy]]]. exact (inv_sound _ _ (components_inv E) c x y Hc Hx Hy). Qed.

Theorem components_complete E x y : conn E x y -> In x (nodes E) -> In y (nodes E) -> same (components E) x y.
Proof.
  induction 1 as [x|a b Hab|x y H IH|x y z H1 IH1 H2 IH2]; intros Hx Hy.
  - apply same_refl_comp. exact Hx.
  - apply components_edge. exact Hab.
  - apply same_sym. apply IH; assumption.
  - assert (Hm : In y (nodes E)) by (apply (conn_nodes E x y H1); exact Hx).
    apply same_trans_comp with y; [apply IH1|apply IH2]; assumption.
Qed.

Theorem components_spec E x y : In x (nodes E) -> In y (nodes E) ->
  (same (components E) x y <-> conn E x y).
Proof. intros Hx Hy. split; [apply components_sound|intros H; apply components_complete; assumption]. Qed.

Theorem components_class E c x : In c (components E) -> In x c -> forall y, In y c <-> conn E x y.
Proof.
  intros Hc Hx y. split.
  - intros Hy. apply components_sound. exists c. auto.
  - intros H. assert (Hxn : In x (nodes E)) by (apply components_cover; exists c; auto).
    assert (Hyn : In y (nodes E)) by (apply (conn_nodes E x y H); exact Hxn).
    destruct (components_complete E x y H Hxn Hyn) as [d [Hd [Hxd Hyd]]].
    assert (c = d) by (apply (components_disjoint E c d x); assumption). subst d. exact Hyd.
Qed.

Lemma edges_equiv_refl E : edges_equiv E E.
Proof. intros a b. reflexivity. Qed.
Lemma edges_equiv_sym E E' : edges_equiv E E' -> edges_equiv E' E.
Proof. intros H a b. symmetry. apply H. Qed.
Lemma edges_equiv_trans E1 E2 E3 : edges_equiv E1 E2 -> edges_equiv E2 E3 -> edges_equiv E1 E3.
Proof. intros H1 H2 a b. rewrite (H1 a b). apply H2. Qed.

Lemma perm_edges_equiv E E' : Permutation E E' -> edges_equiv E E'.
Proof. intros P a b. rewrite P. reflexivity. Qed.

Lemma swap_eq e a b : swap e = (a, b) <-> e = (b, a).
Proof. destruct e as [x y]. unfold swap. cbn [fst snd]. split; intros H; inversion H; reflexivity. Qed.

Lemma in2_cons {A} (x y c : A) r : In x (c :: r) \/ In y (c :: r) <-> (c = x \/ c = y) \/ (In x r \/ In y r).
Proof. cbn [In]. tauto. Qed.

Lemma flip_edges_equiv : forall E bs, edges_equiv E (flip_some bs E).
Proof.
  induction E as [|e r IH]; intros bs a b; cbn [flip_some]; [reflexivity|].
  rewrite !in2_cons, <- (IH (tl bs) a b). apply or_iff_compat_r.
  destruct bs as [|[|] bs']; [reflexivity| |reflexivity]. rewrite !swap_eq. apply or_comm.
Qed.

Lemma perm_flip_edges_equiv E E' bs : Permutation E' (flip_some bs E) -> edges_equiv E E'.
Proof.
  intros P. apply edges_equiv_trans with (flip_some bs E).
  - apply flip_edges_equiv.
  - apply perm_edges_equiv. apply Permutation_sym. exact P.
Qed.

Lemma conn_edges_equiv E E' x y : edges_equiv E E' -> conn E x y -> conn E' x y.
Proof.
  intros Q. induction 1 as [x|a b Hab|x y _ IH|x y z _ IH1 _ IH2].
  - apply conn_refl.
  - destruct (proj1 (Q a b) (or_introl Hab)) as [H|H]; [apply conn_edge; exact H|apply conn_sym; apply conn_edge; exact H].
  - apply conn_sym. exact IH.
  - apply conn_trans with y; assumption.
Qed.

Lemma nodes_equiv E E' x : edges_equiv E E' -> In x (nodes E) -> In x (nodes E').
Proof.
  intros Q H. apply in_nodes in H. destruct H as [[a b] [He Hx]]. cbn [fst snd] in Hx.
  destruct (proj1 (Q a b) (or_introl He)) as [H|H].
  - apply in_nodes. exists (a, b). split; [exact H|exact Hx].
  - apply in_nodes. exists (b, a). split; [exact H|]. cbn [fst snd]. tauto.
Qed.

Lemma components_equiv_half E E' : edges_equiv E E' ->
  forall c, In c (components E) -> exists c', In c' (components E') /\ set_eq c c'.
Proof.
  intros Q c Hc. destruct c as [|x0 c0] eqn:Ec; [exfalso; exact (components_nonempty E [] Hc eq_refl)|]. rewrite <- Ec in *.
  assert (Hx0 : In x0 c) by (rewrite Ec; left; reflexivity).
  assert (Hn : In x0 (nodes E')).
  { apply (nodes_equiv E E' x0 Q). apply components_cover. exists c. auto. }
  apply components_cover in Hn. destruct Hn as [c' [Hc' Hx0']]. exists c'. split; [exact Hc'|].
  intros y. rewrite (components_class E c x0 Hc Hx0 y), (components_class E' c' x0 Hc' Hx0' y).
  split; apply conn_edges_equiv; [exact Q|apply edges_equiv_sym; exact Q].
Qed.

(* the components do not depend on the order of the statements, on which side of a statement a signal is written,
   or on repeated statements *)
Theorem components_equiv E E' : edges_equiv E E' -> parts_equiv (components E) (components E').
Proof.
  intros Q. split; apply components_equiv_half; [|apply edges_equiv_sym]; exact Q.
Qed.

Theorem components_perm E E' : Permutation E E' -> parts_equiv (components E) (components E').
Proof. intros P. apply components_equiv. apply perm_edges_equiv. exact P. Qed.

Theorem components_flip E bs : parts_equiv (components E) (components (flip_some bs E)).
Proof. apply components_equiv. apply flip_edges_equiv. Qed.

Theorem components_perm_flip E E' bs : Permutation E' (flip_some bs E) ->
  parts_equiv (components E) (components E').
Proof. intros P. apply components_equiv. exact (perm_flip_edges_equiv E E' bs P). Qed.

Lemma subset_b_spec a b : subset_b a b = true <-> (forall x, In x a -> In x b).
Proof.
  unfold subset_b. rewrite forallb_forall. split; intros H x Hx; apply memn_In; apply H; exact Hx.
Qed.

Lemma set_eqb_spec a b : set_eqb a b = true <-> set_eq a b.
Proof.
  unfold set_eqb, set_eq. rewrite andb_true_iff, !subset_b_spec. split.
  - intros [H1 H2] x. split; auto.
  - intros H. split; intros x Hx; apply H; exact Hx.
Qed.

Lemma same_b_spec p x y : same_b p x y = true <-> same p x y.
Proof.
  unfold same_b, same. rewrite existsb_exists. split.
  - intros [c [Hc H]]. apply andb_prop in H. destruct H as [H1 H2]. apply memn_In in H1, H2. exists c. auto.
  - intros [c [Hc [H1 H2]]]. exists c. split; [exact Hc|]. apply andb_true_intro. split; apply memn_In; assumption.
Qed.

Lemma same_within p q x y : (forall c, In c p -> exists c', In c' q /\ set_eq c c') -> same p x y -> same q x y.
Proof.
  intros H [c [Hc [Hx Hy]]]. destruct (H c Hc) as [c' [Hc' Hs]]. exists c'. split; [exact Hc'|]. split; apply Hs; assumption.
Qed.

Lemma same_parts_equiv p q x y : parts_equiv p q -> (same p x y <-> same q x y).
Proof. intros [H1 H2]. split; apply same_within; assumption. Qed.

Lemma same_b_equiv E E' x y : edges_equiv E E' -> same_b (components E) x y = same_b (components E') x y.
Proof.
  intros Q. apply eq_true_iff_eq. rewrite !same_b_spec. apply same_parts_equiv. apply components_equiv. exact Q.
Qed.

Lemma classes_within_sound p q : forallb (fun c => existsb (set_eqb c) q) p = true ->
  forall c, In c p -> exists c', In c' q /\ set_eq c c'.
Proof.
  intros H c Hc. rewrite forallb_forall in H. specialize (H c Hc). apply existsb_exists in H. destruct H as [c' [Hc' Hs]].
  exists c'. split; [exact Hc'|apply set_eqb_spec; exact Hs].
Qed.

(* the two inclusions say that obs and the components have the same classes; the length test then rules out a class
   reported twice, the components being non-empty and pairwise disjoint *)
Theorem nets_ok_sound E obs : nets_ok E obs = true ->
  length obs = length (components E) /\
  parts_equiv obs (components E) /\
  (forall o x, In o obs -> In x o -> forall y, In y o <-> conn E x y) /\
  (forall x, In x (nodes E) <-> exists o, In o obs /\ In x o).
Proof.
  unfold nets_ok. intros H. apply andb_prop in H. destruct H as [H H3]. apply andb_prop in H. destruct H as [H1 H2].
  apply Nat.eqb_eq in H1.
  assert (P : parts_equiv obs (components E)) by (split; apply classes_within_sound; assumption).
  split; [exact H1|]. split; [exact P|]. split.
  - intros o x Ho Hx y. destruct (proj1 P o Ho) as [c [Hc Hs]].
    rewrite (Hs y). apply components_class; [exact Hc|apply Hs; exact Hx].
  - intros x. rewrite components_cover. split.
    + intros [c [Hc Hx]]. destruct (proj2 P c Hc) as [o [Ho Hs]]. exists o. split; [exact Ho|apply Hs; exact Hx].
    + intros [o [Ho Hx]]. destruct (proj1 P o Ho) as [c [Hc Hs]]. exists c. split; [exact Hc|apply Hs; exact Hx].
Qed.

(* removing an undirected edge and asking whether its ends stay connected: used by Defects.conn_loop only *)
Lemma is_und_spec a b e : is_und a b e = true <-> (e = (a, b) \/ e = (b, a)).
Proof.
  unfold is_und. destruct e as [x y]. cbn [fst snd]. rewrite orb_true_iff, !andb_true_iff, !Nat.eqb_eq. split.
  - intros [[-> ->]|[-> ->]]; auto.
  - intros [H|H]; inversion H; auto.
Qed.

Lemma is_und_swap a b x y : is_und a b (y, x) = is_und a b (x, y).
Proof. unfold is_und. cbn [fst snd]. rewrite orb_comm, (andb_comm (y =? a)), (andb_comm (y =? b)). reflexivity. Qed.

Lemma in_remove_und a b E e : In e (remove_und a b E) <-> In e E /\ is_und a b e = false.
Proof. unfold remove_und. rewrite filter_In, negb_true_iff. reflexivity. Qed.

(* an edge and its mirror image are removed together *)
Lemma und_remove_und a b E x y : In (x, y) (remove_und a b E) \/ In (y, x) (remove_und a b E) <->
  (In (x, y) E \/ In (y, x) E) /\ is_und a b (x, y) = false.
Proof. rewrite !in_remove_und, (is_und_swap a b x y). tauto. Qed.

Lemma remove_und_equiv E E' a b : edges_equiv E E' -> edges_equiv (remove_und a b E) (remove_und a b E').
Proof. intros Q x y. rewrite !und_remove_und, (Q x y). reflexivity. Qed.

Lemma same_b_sym p x y : same_b p x y = same_b p y x.
Proof. unfold same_b. induction p as [|c p IH]; cbn [existsb]; [reflexivity|]. now rewrite IH, andb_comm. Qed.

Lemma remove_und_sym a b E : remove_und a b E = remove_und b a E.
Proof. unfold remove_und. apply filter_ext. intros e. f_equal. unfold is_und. apply orb_comm. Qed.
