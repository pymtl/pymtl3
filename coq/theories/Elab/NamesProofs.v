(* Elab/NamesProofs.v — the naming model of Elab/Names.v (property C14): evaluating the printed name of an object gives
   the object back, hence names are injective; whatever a name evaluates to is an object; parent, host and top-level
   signal are prefixes of the path; [objects] enumerates exactly the objects.  The proofs turn on [step] read as a
   relation ([Step]) and on the fact that a walk from a well-formed tree stays among declared nodes and slices ([okn]).
   Unbounded: induction over paths and token lists.  No axioms. *)
From Coq Require Import List Bool Arith Ascii String Lia.
From Coq Require Import Decimal DecimalNat DecimalFacts.
From PV Require Import Base.Prelude Elab.Names.
Import ListNotations.
Local Open Scope nat_scope.
Local Open Scope list_scope.

Lemma mem_str_In x l : mem_str x l = true <-> In x l.
Proof.
  induction l as [|y l IH]; cbn; [split; [discriminate|tauto]|].
  rewrite orb_true_iff, IH, String.eqb_eq. split; intros [H|H]; auto.
Qed.
Lemma nodupb_NoDup l : nodupb l = true <-> NoDup l.
Proof.
  induction l as [|x l IH]; cbn; [split; [constructor|auto]|].
  rewrite andb_true_iff, negb_true_iff, IH. split.
  - intros [H1 H2]. constructor; auto. rewrite <- mem_str_In. congruence.
  - intros H; inversion H; subst. split; auto. destruct (mem_str x l) eqn:E; auto. apply mem_str_In in E. tauto.
Qed.

Lemma forallb_nth {A} (f : A -> bool) l k x : forallb f l = true -> nth_error l k = Some x -> f x = true.
Proof. rewrite forallb_forall. intros H E. apply nth_error_In in E. auto. Qed.

(* [wf] recurses through two local fixpoints written inside its body; the next two lemmas give them their library form *)
Definition kids_wf (cs : list (string * node)) : bool := forallb (fun ic => wf (snd ic)) cs.
Lemma wf_kids_unfold cs :
  (fix all (l : list (string * node)) : bool := match l with [] => true | (_, c) :: l' => wf c && all l' end) cs = kids_wf cs.
Proof. induction cs as [|[i c] cs IH]; cbn; [reflexivity|]. now rewrite IH. Qed.
Lemma wf_elems_unfold es :
  (fix all (l : list node) : bool := match l with [] => true | e :: l' => wf e && all l' end) es = forallb wf es.
Proof. induction es as [|e es IH]; cbn; [reflexivity|]. now rewrite IH. Qed.
Lemma wf_list es : wf (NList es) = true -> forallb wf es = true.
Proof. cbn. now rewrite wf_elems_unfold. Qed.

(* The nodes met while walking a well-formed tree: declared nodes, and the slice nodes that only stepping creates
   ([wf] is false on those).  A slice node has no successor, so facts about steps hold of it for free. *)
Definition okn (t : node) : Prop := wf t = true \/ exists a b, t = NSlice a b.

(* the three kinds of node with children share one clause of [wf] *)
Lemma wf_children t cs : wf t = true -> children t = Some cs ->
  nodupb (map fst cs) && forallb ident_ok (map fst cs) && kids_wf cs = true.
Proof. destruct t; try discriminate; cbn; intros W E; inversion E; subst; now rewrite wf_kids_unfold in W. Qed.

Lemma okn_children t cs : okn t -> children t = Some cs ->
  NoDup (map fst cs) /\ forallb ident_ok (map fst cs) = true /\ kids_wf cs = true.
Proof.
  intros [W|(a & b & ->)] E; [|discriminate]. pose proof (wf_children t cs W E) as H.
  apply andb_true_iff in H as [H H3]. apply andb_true_iff in H as [H1 H2]. apply nodupb_NoDup in H1. auto.
Qed.

Lemma find_idx_nth cs : forall k j id c, NoDup (map fst cs) -> nth_error cs k = Some (id, c) ->
  find_idx id j cs = Some (j + k, c).
Proof.
  induction cs as [|[x d] cs IH]; intros k j id c ND E; [destruct k; discriminate|].
  cbn in ND. inversion ND as [|? ? Hx ND']; subst. destruct k as [|k]; cbn in *.
  - inversion E; subst. rewrite String.eqb_refl. now rewrite Nat.add_0_r.
  - destruct (String.eqb id x) eqn:Ex.
    + apply String.eqb_eq in Ex; subst. exfalso. apply Hx. apply nth_error_In in E. now apply (in_map fst) in E.
    + rewrite (IH k (S j) id c ND' E). f_equal. f_equal. lia.
Qed.
Lemma find_idx_sound cs : forall j id k c, find_idx id j cs = Some (k, c) ->
  j <= k /\ nth_error cs (k - j) = Some (id, c).
Proof.
  induction cs as [|[x d] cs IH]; intros j id k c E; [discriminate|]. cbn in E.
  destruct (String.eqb id x) eqn:Ex.
  - inversion E; subst. apply String.eqb_eq in Ex; subst. rewrite Nat.sub_diag. now split.
  - apply IH in E as [L E]. split; [lia|]. replace (k - j) with (S (k - S j)) by lia. exact E.
Qed.

(* [step] as a relation: its three ways of succeeding *)
Inductive Step : node -> pstep -> token -> node -> Prop :=
| StepChild t cs k id c : children t = Some cs -> nth_error cs k = Some (id, c) -> Step t (PChild k) (TDot id) c
| StepElem es i e : nth_error es i = Some e -> Step (NList es) (PElem i) (TIdx i) e
| StepSlice n lo hi : lo < hi <= n -> Step (NBits n) (PSlice lo hi) (TSlice lo hi) (NSlice lo hi).

Lemma step_iff t s tk c : step t s = Some (tk, c) <-> Step t s tk c.
Proof.
  split.
  - destruct s as [k|i|lo hi]; unfold step; intros E.
    + destruct (children t) as [cs|] eqn:Ec; [|discriminate].
      destruct (nth_error cs k) as [[id d]|] eqn:En; [|discriminate]. inversion E; subst. now apply StepChild with cs.
    + destruct t; try discriminate. destruct (nth_error es i) eqn:En; [|discriminate]. inversion E; subst. now constructor.
    + destruct t; try discriminate. destruct ((lo <? hi) && (hi <=? n)) eqn:B; [|discriminate]. inversion E; subst.
      constructor. lia.
  - intros [t' cs k id c' Ec En|es i e En|n lo hi B]; unfold step.
    + now rewrite Ec, En.
    + now rewrite En.
    + replace ((lo <? hi) && (hi <=? n)) with true by lia. reflexivity.
Qed.

Lemma slice_step_ok n lo hi : lo < hi <= n -> step (NBits n) (PSlice lo hi) = Some (TSlice lo hi, NSlice lo hi).
Proof. intros H. apply step_iff. now constructor. Qed.
Lemma step_slice_none lo hi s : step (NSlice lo hi) s = None.
Proof. destruct s; reflexivity. Qed.
Lemma Step_list_iff_elem t s tk c : Step t s tk c -> is_list t = is_elem s.
Proof. intros [t' cs k id c' Ec En|es i e En|n lo hi B]; [|reflexivity..]. destruct t'; try discriminate; reflexivity. Qed.

Lemma step_wf t s tk c : okn t -> Step t s tk c ->
  wf c = true \/ exists n lo hi, t = NBits n /\ s = PSlice lo hi /\ c = NSlice lo hi /\ lo < hi <= n.
Proof.
  intros O S. destruct S as [t cs k id c Ec En|es i e En|n lo hi B].
  - left. destruct (okn_children _ _ O Ec) as (_ & _ & K). exact (forallb_nth _ _ _ _ K En).
  - left. destruct O as [W|(a & b & E)]; [|discriminate]. exact (forallb_nth _ _ _ _ (wf_list _ W) En).
  - right. exists n, lo, hi. auto.
Qed.
Lemma step_okn t s tk c : okn t -> Step t s tk c -> okn c.
Proof. intros O S. destruct (step_wf _ _ _ _ O S) as [W|(n & lo & hi & _ & _ & -> & _)]; [now left|right; eauto]. Qed.
Lemma step_dst_of_child n k tk m : wf n = true -> step n (PChild k) = Some (tk, m) -> wf m = true.
Proof.
  intros W E. apply step_iff in E.
  destruct (step_wf _ _ _ _ (or_introl W) E) as [Wc|(? & ? & ? & _ & H & _)]; [exact Wc|discriminate].
Qed.

Lemma walk_cons_inv t s p ts n : walk t (s :: p) = Some (ts, n) ->
  exists tk c ts', Step t s tk c /\ walk c p = Some (ts', n) /\ ts = tk :: ts'.
Proof.
  cbn [walk]. destruct (step t s) as [[tk c]|] eqn:Es; [|discriminate].
  destruct (walk c p) as [[ts' n']|] eqn:Ew; [|discriminate]. intros E; inversion E; subst.
  apply step_iff in Es. exists tk, c, ts'. auto.
Qed.

Lemma walk_app t p q : walk t (p ++ q) =
  match walk t p with
  | Some (ts, n) => match walk n q with Some (ts', m) => Some (ts ++ ts', m) | None => None end
  | None => None end.
Proof.
  revert t; induction p as [|s p IH]; intros t; cbn.
  - destruct (walk t q) as [[? ?]|]; reflexivity.
  - destruct (step t s) as [[tk c]|]; [|reflexivity]. rewrite IH.
    destruct (walk c p) as [[ts n]|]; [|reflexivity]. destruct (walk n q) as [[ts' m]|]; reflexivity.
Qed.

Lemma node_at_cons t s p : node_at t (s :: p) = match step t s with Some (_, c) => node_at c p | None => None end.
Proof.
  unfold node_at. cbn [walk]. destruct (step t s) as [[tk c]|]; [|reflexivity]. destruct (walk c p) as [[? ?]|]; reflexivity.
Qed.
Lemma node_at_app t p q : node_at t (p ++ q) = match node_at t p with Some n => node_at n q | None => None end.
Proof.
  unfold node_at. rewrite walk_app. destruct (walk t p) as [[ts n]|]; [|reflexivity].
  destruct (walk n q) as [[? ?]|]; reflexivity.
Qed.
Lemma node_at_mid t q x e m : node_at t (q ++ x :: e) = Some m ->
  exists n tk c, node_at t q = Some n /\ Step n x tk c /\ node_at c e = Some m.
Proof.
  rewrite node_at_app. destruct (node_at t q) as [n|]; [|discriminate]. rewrite node_at_cons.
  destruct (step n x) as [[tk c]|] eqn:Es; [|discriminate]. apply step_iff in Es. eauto 6.
Qed.
Lemma name_of_app t p q n : node_at t p = Some n -> (exists m, node_at n q = Some m) ->
  name_of t (p ++ q) = name_of t p ++ name_of n q.
Proof.
  unfold node_at, name_of. rewrite walk_app. destruct (walk t p) as [[ts n']|]; [|discriminate].
  intros E [m Hm]. inversion E; subst. destruct (walk n q) as [[ts' m']|]; [reflexivity|discriminate].
Qed.
Lemma node_at_okn : forall p t n, okn t -> node_at t p = Some n -> okn n.
Proof.
  induction p as [|s p IH]; intros t n O N.
  - cbn in N. inversion N; subst. exact O.
  - rewrite node_at_cons in N. destruct (step t s) as [[tk c]|] eqn:Es; [|discriminate]. apply step_iff in Es.
    exact (IH _ _ (step_okn _ _ _ _ O Es) N).
Qed.

Lemma is_object_cons t s p : is_object t (s :: p) = match step t s with Some (_, c) => is_object c p | None => false end.
Proof. unfold is_object. rewrite node_at_cons. destruct (step t s) as [[? ?]|]; reflexivity. Qed.
Lemma is_object_iff t p : is_object t p = true <-> exists n, node_at t p = Some n /\ is_list n = false.
Proof.
  unfold is_object. destruct (node_at t p) as [n|].
  - rewrite negb_true_iff. split; [eauto|]. intros (m & E & L). now inversion E; subst.
  - split; [discriminate|]. intros (m & E & _). discriminate.
Qed.

Lemma rstep_of_step t s tk c : okn t -> Step t s tk c -> rstep t tk = Some (s, c).
Proof.
  intros O S. destruct S as [t cs k id c Ec En|es i e En|n lo hi B]; unfold rstep.
  - rewrite Ec. destruct (okn_children _ _ O Ec) as (ND & _ & _). now rewrite (find_idx_nth cs k 0 id c ND En).
  - now rewrite En.
  - replace ((lo <? hi) && (hi <=? n)) with true by lia. reflexivity.
Qed.

Lemma tstep_not_slice t rp tk : (forall a b, t <> NSlice a b) ->
  tstep t rp tk = match rstep t tk with Some (s, c) => Some (c, s :: rp) | None => None end.
Proof. intros H. destruct t; try reflexivity. now destruct (H lo hi). Qed.

Lemma tstep_of_step t rp s tk c : okn t -> Step t s tk c -> tstep t rp tk = Some (c, s :: rp).
Proof.
  intros O S. rewrite tstep_not_slice, (rstep_of_step _ _ _ _ O S); [reflexivity|].
  intros a b ->. apply step_iff in S. rewrite step_slice_none in S. discriminate.
Qed.

Lemma run_walk : forall p t rp ts n, okn t -> walk t p = Some (ts, n) -> run t rp ts = Some (n, rev p ++ rp).
Proof.
  induction p as [|s p IH]; intros t rp ts n O E.
  - inversion E; subst. reflexivity.
  - apply walk_cons_inv in E as (tk & c & ts' & S & Ew & ->).
    cbn [run]. rewrite (tstep_of_step _ rp _ _ _ O S), (IH _ (s :: rp) _ _ (step_okn _ _ _ _ O S) Ew).
    cbn [rev]. now rewrite <- app_assoc.
Qed.
Lemma run_name t p n : wf t = true -> node_at t p = Some n -> run t [] (name_of t p) = Some (n, rev p).
Proof.
  unfold node_at, name_of. intros W N. destruct (walk t p) as [[ts m]|] eqn:E; [|discriminate]. inversion N; subst.
  rewrite (run_walk p t [] ts n (or_introl W) E). now rewrite app_nil_r.
Qed.

(* eval(repr(o)) is o *)
Theorem resolve_name t p : wf t = true -> is_object t p = true -> resolve t (name_of t p) = Some p.
Proof.
  intros W O. apply is_object_iff in O as (n & N & L).
  unfold resolve, resolve_from. now rewrite (run_name t p n W N), L, rev_involutive.
Qed.

Theorem name_inj t p q : wf t = true -> is_object t p = true -> is_object t q = true ->
  name_of t p = name_of t q -> p = q.
Proof.
  intros W Op Oq E. pose proof (resolve_name t p W Op) as Rp. pose proof (resolve_name t q W Oq) as Rq.
  rewrite E in Rp. congruence.
Qed.

Lemma rstep_step t tk s c : rstep t tk = Some (s, c) -> exists tk', Step t s tk' c.
Proof.
  destruct tk as [id|i|lo hi]; unfold rstep; intros E.
  - destruct (children t) as [cs|] eqn:Ec; [|discriminate].
    destruct (find_idx id 0 cs) as [[k d]|] eqn:Ef; [|discriminate]. inversion E; subst.
    apply find_idx_sound in Ef as [_ En]. rewrite Nat.sub_0_r in En. exists (TDot id). now apply StepChild with cs.
  - destruct t; try discriminate.
    + destruct (i <? n) eqn:B; [|discriminate]. inversion E; subst. exists (TSlice i (S i)). constructor. lia.
    + destruct (nth_error es i) eqn:En; [|discriminate]. inversion E; subst. exists (TIdx i). now constructor.
  - destruct t; try discriminate. destruct ((lo <? hi) && (hi <=? n)) eqn:B; [|discriminate]. inversion E; subst.
    exists (TSlice lo hi). constructor. lia.
Qed.

(* x[i] is x[i:i+1], on a Bits signal and on a slice of one *)
Lemma tstep_idx t rp i : is_list t = false -> tstep t rp (TIdx i) = tstep t rp (TSlice i (S i)).
Proof.
  intros L. destruct t; try reflexivity; try discriminate L.
  - unfold tstep, rstep. replace ((i <? S i) && (S i <=? n)) with (i <? n) by lia. reflexivity.
  - unfold tstep. rewrite Nat.add_succ_r. replace ((i <? S i) && (S i <=? hi - lo)) with (i <? hi - lo) by lia. reflexivity.
Qed.
Lemma tstep_slice_inv a b rp c d n rp' : tstep (NSlice a b) rp (TSlice c d) = Some (n, rp') ->
  c < d <= b - a /\ n = NSlice (a + c) (a + d) /\ rp' = PSlice (a + c) (a + d) :: tl rp.
Proof.
  unfold tstep. destruct ((c <? d) && (d <=? b - a)) eqn:B; [|discriminate]. intros E; inversion E. split; [lia|auto].
Qed.

(* a slice node is reached by slicing a Bits signal: in a well-formed tree none is declared *)
Lemma slice_origin T rp a b : wf T = true -> node_at T (rev rp) = Some (NSlice a b) ->
  exists n rq, rp = PSlice a b :: rq /\ node_at T (rev rq) = Some (NBits n) /\ a < b <= n.
Proof.
  intros W N. destruct rp as [|s rq]; [cbn in N; inversion N; subst; discriminate W|].
  cbn [rev] in N. apply node_at_mid in N as (m & tk & c & Nm & S & Nc). cbn in Nc. inversion Nc; subst.
  destruct (step_wf _ _ _ _ (node_at_okn _ _ _ (or_introl W) Nm) S) as [Wc|(n & lo & hi & -> & -> & E & B)]; [discriminate Wc|].
  inversion E; subst. eauto.
Qed.

(* the reversed path kept by [run] is the path of the node reached *)
Lemma tstep_path T t rp tk c rp' : wf T = true -> node_at T (rev rp) = Some t -> tstep t rp tk = Some (c, rp') ->
  node_at T (rev rp') = Some c.
Proof.
  intros W N E. destruct (node_at_okn _ _ _ (or_introl W) N) as [Wt|(a & b & ->)].
  - rewrite tstep_not_slice in E by (intros a b ->; discriminate Wt).
    destruct (rstep t tk) as [[s d]|] eqn:R; [|discriminate]. inversion E; subst.
    destruct (rstep_step _ _ _ _ R) as [tk' S]. apply step_iff in S. cbn [rev]. now rewrite node_at_app, N, node_at_cons, S.
  - destruct (slice_origin _ _ _ _ W N) as (n & rq & -> & Nq & Hab).
    assert (E' : exists c0 d0, tstep (NSlice a b) (PSlice a b :: rq) (TSlice c0 d0) = Some (c, rp')).
    { destruct tk as [id|i|c0 d0]; [discriminate|rewrite tstep_idx in E by reflexivity|]; eauto. }
    destruct E' as (c0 & d0 & E'). apply tstep_slice_inv in E' as (B & -> & ->). cbn [tl rev].
    rewrite node_at_app, Nq, node_at_cons, slice_step_ok by lia. reflexivity.
Qed.
Lemma run_path T : wf T = true -> forall ts t rp n rp', node_at T (rev rp) = Some t -> run t rp ts = Some (n, rp') ->
  node_at T (rev rp') = Some n.
Proof.
  intros W. induction ts as [|tk ts IH]; intros t rp n rp' N E; cbn in E.
  - inversion E; subst; exact N.
  - destruct (tstep t rp tk) as [[c rq]|] eqn:Et; [|discriminate]. exact (IH _ _ _ _ (tstep_path _ _ _ _ _ _ W N Et) E).
Qed.

Theorem resolve_sound t ts p : wf t = true -> resolve t ts = Some p -> is_object t p = true.
Proof.
  unfold resolve, resolve_from. intros W E. destruct (run t [] ts) as [[n rp]|] eqn:R; [|discriminate].
  destruct (is_list n) eqn:L; [discriminate|]. inversion E; subst.
  apply is_object_iff. exists n. split; [exact (run_path t W ts t [] n rp eq_refl R)|exact L].
Qed.

(* evaluating any spelling of a name and printing the result gives the canonical spelling, which evaluates to the same object *)
Corollary resolve_canonical t ts p : wf t = true -> resolve t ts = Some p -> resolve t (name_of t p) = Some p.
Proof. intros W E. apply resolve_name; [exact W|eapply resolve_sound; eauto]. Qed.

Lemma run_app : forall a t rp b, run t rp (a ++ b) =
  match run t rp a with Some (n, rp') => run n rp' b | None => None end.
Proof.
  induction a as [|tk a IH]; intros t rp b; cbn; [reflexivity|].
  destruct (tstep t rp tk) as [[c rq]|]; [apply IH|reflexivity].
Qed.

(* x[a:b][c:d] is the object x[a+c:a+d]  (x a Bits signal of width n, a<b<=n, c<d<=b-a) *)
Lemma slice_of_slice_run n rp a b c d rest : a < b <= n -> c < d <= b - a ->
  run (NBits n) rp (TSlice a b :: TSlice c d :: rest) = run (NBits n) rp (TSlice (a + c) (a + d) :: rest).
Proof.
  intros H1 H2. cbn [run]. unfold tstep at 1 3. unfold rstep.
  replace ((a <? b) && (b <=? n)) with true by lia. replace ((a + c <? a + d) && (a + d <=? n)) with true by lia.
  unfold tstep at 1. replace ((c <? d) && (d <=? b - a)) with true by lia. reflexivity.
Qed.

Theorem slice_of_slice_norm t ts rest n rp a b c d :
  run t [] ts = Some (NBits n, rp) -> a < b <= n -> c < d <= b - a ->
  resolve t (ts ++ TSlice a b :: TSlice c d :: rest) = resolve t (ts ++ TSlice (a + c) (a + d) :: rest).
Proof.
  intros R H1 H2. unfold resolve, resolve_from. rewrite !run_app, R. cbv beta iota.
  now rewrite (slice_of_slice_run n rp a b c d rest H1 H2).
Qed.

(* x[i] is the object x[i:i+1] *)
Theorem index_is_unit_slice t ts rest n rp i :
  run t [] ts = Some (NBits n, rp) ->
  resolve t (ts ++ TIdx i :: rest) = resolve t (ts ++ TSlice i (S i) :: rest).
Proof.
  intros R. unfold resolve, resolve_from. rewrite !run_app, R. cbn [run]. now rewrite tstep_idx.
Qed.

(* the name of a slice of a slice: resolving x[a:b][c:d] and printing gives x[a+c:a+d] *)
Theorem slice_of_slice_name t p n a b c d : wf t = true -> node_at t p = Some (NBits n) -> a < b <= n -> c < d <= b - a ->
  resolve t (name_of t p ++ [TSlice a b; TSlice c d]) = Some (p ++ [PSlice (a + c) (a + d)]) /\
  name_of t (p ++ [PSlice (a + c) (a + d)]) = name_of t p ++ [TSlice (a + c) (a + d)].
Proof.
  intros W N H1 H2. assert (Hb : a + c < a + d <= n) by lia.
  assert (Nq : name_of t (p ++ [PSlice (a + c) (a + d)]) = name_of t p ++ [TSlice (a + c) (a + d)]).
  { rewrite (name_of_app t p _ _ N).
    - unfold name_of. cbn [walk]. now rewrite (slice_step_ok _ _ _ Hb).
    - rewrite node_at_cons, (slice_step_ok _ _ _ Hb). cbn. eauto. }
  split; [|exact Nq].
  rewrite (slice_of_slice_norm t (name_of t p) [] n (rev p) a b c d (run_name t p _ W N) H1 H2), <- Nq.
  apply resolve_name; [exact W|]. unfold is_object. rewrite node_at_app, N, node_at_cons, (slice_step_ok _ _ _ Hb). reflexivity.
Qed.

Definition uint_nil (d : Decimal.uint) : bool := match d with Nil => true | _ => false end.

Lemma tok_id : forall cs acc rest, forallb is_ident_char cs = true ->
  tok (TSId acc) (cs ++ rest) = tok (TSId (rev cs ++ acc)) rest.
Proof.
  induction cs as [|c cs IH]; intros acc rest H; [reflexivity|].
  cbn in H. apply andb_true_iff in H as [Hc H]. cbn [app tok]. rewrite Hc, (IH (c :: acc) rest H).
  cbn [rev]. now rewrite <- app_assoc.
Qed.

(* to_uint n is its own unorm (to_of after of_to), and unorm never yields Nil *)
Lemma to_uint_nonnil n : uint_nil (Nat.to_uint n) = false.
Proof.
  pose proof (Unsigned.to_of (Nat.to_uint n)) as H. rewrite Unsigned.of_to in H.
  destruct (Nat.to_uint n) eqn:E; try reflexivity. exfalso. symmetry in H. revert H. apply unorm_nonnil.
Qed.

(* [TSLo] and [TSHi lo] read a number in the same way: [k nd acc] is the state with accumulator acc *)
Section NumberState.
  Variable k : bool -> nat -> tstate.
  Hypothesis k_digit : forall nd acc c cs d, digit_of c = Some d -> tok (k nd acc) (c :: cs) = tok (k true (dig_step d acc)) cs.

  (* dig_step k acc is written Nat.iter k S (Nat.tail_mul 10 acc) so that Nat.of_uint_acc (Dk d) acc and
     Nat.of_uint_acc d (dig_step k acc) are convertible: the last step of each case below is that conversion *)
  Lemma tok_digits : forall d nd acc rest,
    tok (k nd acc) (chars_of_uint d ++ rest) = tok (k (nd || negb (uint_nil d)) (Nat.of_uint_acc d acc)) rest.
  Proof.
    induction d; intros nd acc rest; cbn [chars_of_uint app]; [cbn; now rewrite orb_false_r|..];
      erewrite k_digit by reflexivity; rewrite IHd; cbn [uint_nil negb]; rewrite !orb_true_r; reflexivity.
  Qed.
  Lemma tok_num n rest : tok (k false 0) (digits n ++ rest) = tok (k true n) rest.
  Proof.
    unfold digits. rewrite tok_digits, to_uint_nonnil. cbn [orb negb].
    change (Nat.of_uint_acc (Nat.to_uint n) 0) with (Nat.of_uint (Nat.to_uint n)). now rewrite Unsigned.of_to.
  Qed.
End NumberState.
Lemma tok_lo_num n rest : tok (TSLo false 0) (digits n ++ rest) = tok (TSLo true n) rest.
Proof. apply (tok_num TSLo). intros nd acc c cs d H. cbn [tok]. now rewrite H. Qed.
Lemma tok_hi_num l n rest : tok (TSHi l false 0) (digits n ++ rest) = tok (TSHi l true n) rest.
Proof. apply (tok_num (TSHi l)). intros nd acc c cs d H. cbn [tok]. now rewrite H. Qed.

Definition tok_ok (tk : token) : bool := match tk with TDot id => ident_ok id | _ => true end.

(* after an identifier, the rest of a printed name continues with a fresh token *)
Lemma tok_id_end acc ts : acc <> [] -> tok (TSId acc) (print_tokens ts) = ocons (mk_dot acc) (tok TS0 (print_tokens ts)).
Proof.
  intros NE. assert (Hn : is_nil acc = false) by (destruct acc; [congruence|reflexivity]).
  destruct ts as [|[id|i|lo hi] ts]; cbn [print_tokens print_token app tok].
  - now rewrite Hn.
  - change (is_ident_char "."%char) with false. cbv iota. rewrite Hn. reflexivity.
  - change (is_ident_char "["%char) with false. cbv iota. rewrite Hn. reflexivity.
  - change (is_ident_char "["%char) with false. cbv iota. rewrite Hn. reflexivity.
Qed.

Lemma tok_dot cs : tok TS0 ("."%char :: cs) = tok (TSId []) cs.
Proof. reflexivity. Qed.
Lemma tok_open cs : tok TS0 ("["%char :: cs) = tok (TSLo false 0) cs.
Proof. reflexivity. Qed.
Lemma tok_idx_close i cs : tok (TSLo true i) ("]"%char :: cs) = ocons (TIdx i) (tok TS0 cs).
Proof. reflexivity. Qed.
Lemma tok_colon lo cs : tok (TSLo true lo) (":"%char :: cs) = tok (TSHi lo false 0) cs.
Proof. reflexivity. Qed.
Lemma tok_slice_close lo hi cs : tok (TSHi lo true hi) ("]"%char :: cs) = ocons (TSlice lo hi) (tok TS0 cs).
Proof. reflexivity. Qed.

Theorem print_tokenize ts : forallb tok_ok ts = true -> tokenize (print_tokens ts) = Some ts.
Proof.
  unfold tokenize. induction ts as [|tk ts IH]; intros H; [reflexivity|].
  cbn in H. apply andb_true_iff in H as [Hk H]. specialize (IH H).
  destruct tk as [id|i|lo hi]; cbn [print_tokens print_token app].
  - rewrite tok_dot. unfold tok_ok, ident_ok in Hk. destruct (list_ascii_of_string id) as [|c cs] eqn:Ei; [discriminate|].
    rewrite (tok_id (c :: cs) [] (print_tokens ts) Hk), app_nil_r.
    rewrite tok_id_end by (intros Hc; apply (f_equal (@List.length _)) in Hc; rewrite rev_length in Hc; discriminate).
    rewrite IH. cbn [ocons]. unfold mk_dot. rewrite rev_involutive, <- Ei, string_of_list_ascii_of_string. reflexivity.
  - rewrite tok_open, <- app_assoc, tok_lo_num. cbn [app]. now rewrite tok_idx_close, IH.
  - rewrite tok_open, <- app_assoc, tok_lo_num. cbn [app]. rewrite tok_colon, <- app_assoc, tok_hi_num. cbn [app].
    now rewrite tok_slice_close, IH.
Qed.

(* names of objects of a well-formed tree only use well-formed identifiers *)
Lemma step_tok_ok t s tk c : okn t -> Step t s tk c -> tok_ok tk = true.
Proof.
  intros O S. destruct S as [t cs k id c Ec En| |]; [|reflexivity..].
  destruct (okn_children _ _ O Ec) as (_ & I & _). apply (forallb_nth _ _ k _ I). now rewrite nth_error_map, En.
Qed.
Lemma walk_tok_ok : forall p t ts n, okn t -> walk t p = Some (ts, n) -> forallb tok_ok ts = true.
Proof.
  induction p as [|s p IH]; intros t ts n O E.
  - inversion E; reflexivity.
  - apply walk_cons_inv in E as (tk & c & ts' & S & Ew & ->). cbn.
    now rewrite (step_tok_ok _ _ _ _ O S), (IH _ _ _ (step_okn _ _ _ _ O S) Ew).
Qed.

(* repr(o) parses back to the object's token list, and evaluating it yields o *)
Theorem full_name_roundtrip t p : wf t = true -> is_object t p = true ->
  parse_name (full_name t p) = Some (name_of t p) /\ resolve t (name_of t p) = Some p.
Proof.
  intros W O. split; [|now apply resolve_name].
  unfold parse_name, full_name. rewrite list_ascii_of_string_of_list_ascii.
  change (Ascii.eqb "s"%char "s"%char) with true. cbv iota. apply print_tokenize.
  unfold is_object, node_at in O. unfold name_of. destruct (walk t p) as [[ts n]|] eqn:E; [|discriminate].
  exact (walk_tok_ok _ _ _ _ (or_introl W) E).
Qed.

Theorem full_name_inj t p q : wf t = true -> is_object t p = true -> is_object t q = true ->
  full_name t p = full_name t q -> p = q.
Proof.
  intros W Op Oq E. destruct (full_name_roundtrip t p W Op) as [Pp _]. destruct (full_name_roundtrip t q W Oq) as [Pq _].
  rewrite E in Pp. rewrite Pq in Pp. inversion Pp. eapply name_inj; eauto.
Qed.

(* a path ends in a block of list-element steps; before the block stands a step of another kind, or nothing *)
Lemma path_split p : forallb is_elem p = true \/
  exists q x e, p = q ++ x :: e /\ is_elem x = false /\ forallb is_elem e = true.
Proof.
  induction p as [|s p [He|(q & x & e & -> & Hx & He)]]; [now left| |].
  - destruct (is_elem s) eqn:Hs; [left; cbn; now rewrite Hs|right; exists [], s, p; auto].
  - right. exists (s :: q), x, e. auto.
Qed.

Lemma forallb_rev {A} (f : A -> bool) l : forallb f (rev l) = forallb f l.
Proof. induction l as [|a l IH]; [reflexivity|]. cbn. rewrite forallb_app, IH. cbn. now rewrite andb_true_r, andb_comm. Qed.
Lemma drop_elems_app e r : forallb is_elem e = true -> drop_elems (e ++ r) = drop_elems r.
Proof. induction e as [|s e IH]; [reflexivity|]. cbn. destruct (is_elem s); cbn; [exact IH|discriminate]. Qed.

(* [parent] strips that block together with the step before it *)
Lemma parent_elems e : forallb is_elem e = true -> parent e = [].
Proof.
  intros He. unfold parent. rewrite <- forallb_rev in He. destruct (rev e) as [|y r]; [reflexivity|].
  cbn in He. apply andb_true_iff in He as [Hy Hr]. destruct y; try discriminate Hy.
  rewrite <- (app_nil_r r), (drop_elems_app _ _ Hr). reflexivity.
Qed.
Lemma parent_split q x e : is_elem x = false -> forallb is_elem e = true -> parent (q ++ x :: e) = q.
Proof.
  intros Hx He. unfold parent. rewrite rev_app_distr. cbn [rev]. rewrite <- app_assoc. cbn [app].
  rewrite <- forallb_rev in He. destruct (rev e) as [|y r]; cbn [app].
  - destruct x; try discriminate Hx; apply rev_involutive.
  - cbn in He. apply andb_true_iff in He as [Hy Hr]. destruct y; try discriminate Hy.
    rewrite (drop_elems_app _ _ Hr). cbn [drop_elems]. rewrite Hx. apply rev_involutive.
Qed.

(* the parent's path is a proper prefix; the remainder is ".id[i]..[j]" or "[lo:hi]" *)
Theorem parent_prefix p : p <> [] -> exists suffix, p = parent p ++ suffix /\ suffix <> [].
Proof.
  intros NE. destruct (path_split p) as [He|(q & x & e & -> & Hx & He)].
  - exists p. now rewrite (parent_elems p He).
  - exists (x :: e). rewrite (parent_split q x e Hx He). split; [reflexivity|discriminate].
Qed.

Lemma elem_src_list t i p m : node_at t (PElem i :: p) = Some m -> is_list t = true.
Proof. rewrite node_at_cons. destruct t; cbn; try discriminate. reflexivity. Qed.

Theorem parent_is_object t p : is_list t = false -> is_object t p = true -> is_object t (parent p) = true.
Proof.
  intros Lt O. destruct (path_split p) as [He|(q & x & e & -> & Hx & He)].
  - rewrite (parent_elems p He). unfold is_object. cbn. now rewrite Lt.
  - (* the parent is the source of a step that is not an element step: it is not a list *)
    rewrite (parent_split q x e Hx He). apply is_object_iff in O as (m & N & _).
    apply node_at_mid in N as (n & tk & c & Nq & S & _). apply is_object_iff. exists n. split; [exact Nq|].
    now rewrite (Step_list_iff_elem _ _ _ _ S).
Qed.

Corollary parent_name_prefix t p : is_object t p = true ->
  exists rest, name_of t p = name_of t (parent p) ++ rest.
Proof.
  intros O. destruct (path_split p) as [He|(q & x & e & -> & Hx & He)].
  - rewrite (parent_elems p He). exists (name_of t p). reflexivity.
  - rewrite (parent_split q x e Hx He). apply is_object_iff in O as (m & N & _). rewrite node_at_app in N.
    destruct (node_at t q) as [n|] eqn:Nq; [|discriminate]. exists (name_of n (x :: e)). apply (name_of_app t q _ n Nq). eauto.
Qed.

Theorem level_dots : forall p t ts n, walk t p = Some (ts, n) -> count_dots ts = level p.
Proof.
  induction p as [|s p IH]; intros t ts n E; [inversion E; reflexivity|].
  apply walk_cons_inv in E as (tk & c & ts' & S & Ew & ->). specialize (IH _ _ _ Ew).
  destruct S; cbn; now rewrite IH.
Qed.

Lemma level_app p q : level (p ++ q) = level p + level q.
Proof. induction p as [|[k|i|lo hi] p IH]; cbn; auto. Qed.
Lemma level_elems e : forallb is_elem e = true -> level e = 0.
Proof. induction e as [|[k|i|lo hi] e IH]; cbn; auto; discriminate. Qed.

(* a declared object (reached without slicing) is one attribute hop below its parent object *)
Theorem level_parent t p : is_list t = false -> is_object t p = true -> p <> [] ->
  (forall lo hi, last p (PChild 0) <> PSlice lo hi) -> level p = S (level (parent p)).
Proof.
  intros Lt O NE NS. apply is_object_iff in O as (m & N & _).
  destruct (path_split p) as [He|(q & x & e & -> & Hx & He)].
  - (* element steps only: the root would be a list *)
    exfalso. destruct p as [|[k|i|lo hi] p]; try discriminate He; [contradiction|].
    apply elem_src_list in N. congruence.
  - rewrite (parent_split q x e Hx He), level_app. cbn [level].
    destruct x as [k|j|lo hi]; [rewrite (level_elems e He); lia|discriminate Hx|exfalso].
    (* a slice step has no successor, and is not last *)
    apply node_at_mid in N as (n & tk & c & _ & S & Ne). inversion S; subst. destruct e as [|[k|i|lo' hi'] e]; try discriminate He.
    + apply (NS lo hi). apply last_last.
    + apply elem_src_list in Ne. discriminate.
Qed.

Lemma parent_nil : parent [] = [].
Proof. reflexivity. Qed.
Lemma parent_shorter p : p <> [] -> length (parent p) < length p.
Proof.
  intros NE. destruct (parent_prefix p NE) as (suf & E & NS). rewrite E at 2. rewrite app_length.
  destruct suf; [contradiction|cbn; lia].
Qed.
Lemma parent_app p : exists suf, p = parent p ++ suf.
Proof. destruct p as [|s p]; [exists []; reflexivity|]. destruct (parent_prefix (s :: p)) as (suf & E & _); [discriminate|eauto]. Qed.
(* below a component root, what is not a component has a shorter parent *)
Lemma not_comp_shorter t p : is_comp t = true -> is_comp_at t p = false -> length (parent p) < length p.
Proof.
  intros C Cp. apply parent_shorter. intros ->. unfold is_comp_at, node_at in Cp; cbn in Cp. congruence.
Qed.

Lemma host_fuel_prefix t : forall fuel p, exists suf, p = host_fuel t fuel p ++ suf.
Proof.
  induction fuel as [|f IH]; intros p; cbn; [exists []; now rewrite app_nil_r|].
  destruct (is_comp_at t p); [exists []; now rewrite app_nil_r|].
  destruct (IH (parent p)) as (s1 & E1). destruct (parent_app p) as (s2 & E2).
  exists (s1 ++ s2). rewrite app_assoc, <- E1. exact E2.
Qed.
Lemma host_fuel_comp t : is_comp t = true -> forall fuel p, length p < fuel -> is_comp_at t (host_fuel t fuel p) = true.
Proof.
  intros C. induction fuel as [|f IH]; intros p L; [lia|]. cbn.
  destruct (is_comp_at t p) eqn:Cp; [exact Cp|]. apply IH. pose proof (not_comp_shorter t p C Cp). lia.
Qed.
Lemma host_fuel_stable t : is_comp t = true -> forall f1 f2 p, length p < f1 -> length p < f2 ->
  host_fuel t f1 p = host_fuel t f2 p.
Proof.
  intros C. induction f1 as [|f1 IH]; intros f2 p L1 L2; [lia|]. destruct f2 as [|f2]; [lia|]. cbn.
  destruct (is_comp_at t p) eqn:Cp; [reflexivity|]. pose proof (not_comp_shorter t p C Cp). apply IH; lia.
Qed.

(* the host is reached by following parents, it is a component, and its path is a prefix *)
Theorem host_spec t p : is_comp t = true ->
  (exists suf, p = host t p ++ suf) /\ is_comp_at t (host t p) = true /\
  (is_comp_at t p = true -> host t p = p) /\ (is_comp_at t p = false -> host t p = host t (parent p)).
Proof.
  intros C. unfold host. split; [apply host_fuel_prefix|]. split; [apply host_fuel_comp; [exact C|lia]|].
  split; intros Cp; [cbn [host_fuel]; rewrite Cp; reflexivity|].
  change (host_fuel t (S (length p)) p) with (if is_comp_at t p then p else host_fuel t (length p) (parent p)). rewrite Cp.
  pose proof (not_comp_shorter t p C Cp). apply host_fuel_stable; [exact C| |]; lia.
Qed.

(* q is the outermost signal on the path: the node at q is a signal and none above it is *)
Definition first_sig (t : node) (q : path) : Prop :=
  is_sig_at t q = true /\ forall q1 q2, q = q1 ++ q2 -> q2 <> [] -> is_sig_at t q1 = false.

Lemma first_sig_nil t : is_sig t = true -> first_sig t [].
Proof.
  intros S. split; [exact S|]. intros q1 q2 H NE. symmetry in H. apply app_eq_nil in H as [_ H]. contradiction.
Qed.
Lemma first_sig_cons t s tk c a : is_sig t = false -> step t s = Some (tk, c) -> first_sig c a -> first_sig t (s :: a).
Proof.
  intros S Es [Sa Min]. unfold first_sig, is_sig_at. split; [rewrite node_at_cons, Es; exact Sa|].
  intros [|s1 a1] a2 H NE; [exact S|]. inversion H; subst. rewrite node_at_cons, Es. exact (Min a1 a2 eq_refl NE).
Qed.

Lemma tls_from_spec : forall p t rpre q, tls_from t rpre p = Some q ->
  exists a r, p = a ++ r /\ q = rev rpre ++ a /\ first_sig t a.
Proof.
  induction p as [|s p IH]; intros t rpre q E; cbn [tls_from] in E; destruct (is_sig t) eqn:S.
  - inversion E; subst. exists [], []. rewrite (app_nil_r (rev rpre)). auto using first_sig_nil.
  - discriminate.
  - inversion E; subst. exists [], (s :: p). rewrite (app_nil_r (rev rpre)). auto using first_sig_nil.
  - destruct (step t s) as [[tk c]|] eqn:Es; [|discriminate].
    destruct (IH _ _ _ E) as (a & r & -> & -> & F). exists (s :: a), r. cbn [rev]. rewrite <- app_assoc.
    split; [reflexivity|]. split; [reflexivity|]. exact (first_sig_cons _ _ _ _ _ S Es F).
Qed.

(* the top-level signal of a (field / slice / declared) signal is the OUTERMOST signal on its path: a declared signal *)
Theorem tls_spec t p q : top_level_signal t p = Some q ->
  (exists r, p = q ++ r) /\ is_sig_at t q = true /\ (forall q1 q2, q = q1 ++ q2 -> q2 <> [] -> is_sig_at t q1 = false).
Proof.
  intros E. destruct (tls_from_spec p t [] q E) as (a & r & -> & -> & F). split; [exists r; reflexivity|exact F].
Qed.

Lemma tls_from_exists : forall p t rpre n, node_at t p = Some n -> is_sig n = true -> exists q, tls_from t rpre p = Some q.
Proof.
  induction p as [|s p IH]; intros t rpre n N S; cbn [tls_from].
  - cbn in N. inversion N; subst. rewrite S. eauto.
  - destruct (is_sig t); [eauto|]. rewrite node_at_cons in N.
    destruct (step t s) as [[tk c]|]; [|discriminate]. exact (IH c (s :: rpre) n N S).
Qed.
Theorem tls_exists t p : is_sig_at t p = true -> exists q, top_level_signal t p = Some q.
Proof.
  unfold is_sig_at. destruct (node_at t p) as [n|] eqn:N; [|discriminate]. intros S. eapply tls_from_exists; eauto.
Qed.

(* [objects] and [eager] recurse through local fixpoints written inside their bodies; these are those fixpoints with
   the recursive call as a parameter, so that e.g. objects (NList es) and objs_elems objects 0 es are convertible *)
Definition objs_kids (f : node -> list path) : nat -> list (string * node) -> list path :=
  fix go (k : nat) (l : list (string * node)) : list path :=
    match l with [] => [] | (_, c) :: l' => map (cons (PChild k)) (f c) ++ go (S k) l' end.
Definition objs_elems (f : node -> list path) : nat -> list node -> list path :=
  fix go (i : nat) (l : list node) : list path :=
    match l with [] => [] | e :: l' => map (cons (PElem i)) (f e) ++ go (S i) l' end.

(* both enumerate position by position *)
Lemma go_In {A} (go : nat -> list A -> list path) (g : nat -> A -> list path) :
  (forall k, go k [] = []) -> (forall k a l, go k (a :: l) = g k a ++ go (S k) l) ->
  forall l k p, In p (go k l) <-> exists j a, nth_error l j = Some a /\ In p (g (k + j) a).
Proof.
  intros Hn Hc. induction l as [|a l IH]; intros k p.
  - rewrite Hn. split; [contradiction|]. intros ([|j] & ? & E & _); discriminate.
  - rewrite Hc, in_app_iff, IH. split.
    + intros [Hp|(j & b & En & Hp)]; [exists 0, a; now rewrite Nat.add_0_r|exists (S j), b; now rewrite Nat.add_succ_r].
    + intros ([|j] & b & En & Hp); cbn in En.
      * inversion En; subst. left. now rewrite Nat.add_0_r in Hp.
      * right. exists j, b. now rewrite Nat.add_succ_r in Hp.
Qed.

(* so the paths listed under a node are those whose first step the node can take *)
Lemma kids_In f t cs s p : children t = Some cs ->
  (In (s :: p) (objs_kids f 0 cs) <-> exists tk c, Step t s tk c /\ In p (f c)).
Proof.
  intros Ec. rewrite (go_In (objs_kids f) (fun k ic => map (cons (PChild k)) (f (snd ic))));
    [|reflexivity|intros k [id c] l; reflexivity]. split.
  - intros (k & [id c] & En & Hp). apply in_map_iff in Hp as (p' & E & Hp). inversion E; subst.
    exists (TDot id), c. split; [now apply StepChild with cs|exact Hp].
  - intros (tk & c & S & Hp). destruct S as [t cs' k id c Ec' En| |]; [|discriminate Ec..].
    rewrite Ec in Ec'. inversion Ec'; subst. exists k, (id, c). split; [exact En|]. now apply in_map.
Qed.
Lemma elems_In f es s p : In (s :: p) (objs_elems f 0 es) <-> exists tk c, Step (NList es) s tk c /\ In p (f c).
Proof.
  rewrite (go_In (objs_elems f) (fun i e => map (cons (PElem i)) (f e))) by reflexivity. split.
  - intros (i & e & En & Hp). apply in_map_iff in Hp as (p' & E & Hp). inversion E; subst.
    exists (TIdx i), e. split; [now constructor|exact Hp].
  - intros (tk & c & S & Hp). inversion S; subst; [discriminate|]. exists i, c. split; [assumption|]. now apply in_map.
Qed.
Lemma elems_nil f es : ~ In [] (objs_elems f 0 es).
Proof.
  rewrite (go_In (objs_elems f) (fun i e => map (cons (PElem i)) (f e))) by reflexivity.
  intros (i & e & _ & Hp). apply in_map_iff in Hp as (p' & E & _). discriminate E.
Qed.

Lemma seq_slices_hi_In lo : forall h p, In p (seq_slices_hi lo h) <-> exists j, 1 <= j <= h /\ p = [PSlice lo (lo + j)].
Proof.
  induction h as [|h IH]; intros p; cbn [seq_slices_hi].
  - split; [contradiction|]. intros (j & H & _). lia.
  - rewrite in_app_iff, IH. cbn [In]. split.
    + intros [(j & H & ->)|[<-|[]]]; [exists j; split; [lia|reflexivity]|exists (S h); split; [lia|reflexivity]].
    + intros (j & H & ->). destruct (Nat.eq_dec j (S h)) as [->|NE]; [right; left; reflexivity|left; exists j; split; [lia|reflexivity]].
Qed.
Lemma slices_from_In n : forall m p, In p (slices_from n m) <-> exists l, l < m /\ In p (seq_slices_hi l (n - l)).
Proof.
  induction m as [|m IH]; intros p; cbn [slices_from].
  - split; [contradiction|]. intros (l & H & _). lia.
  - rewrite in_app_iff, IH. split.
    + intros [(l & H & Hp)|Hp]; [exists l; split; [lia|exact Hp]|exists m; split; [lia|exact Hp]].
    + intros (l & H & Hp). destruct (Nat.eq_dec l m) as [->|NE]; [right; exact Hp|left; exists l; split; [lia|exact Hp]].
Qed.
Lemma slices_In n p : In p (slices n) <-> exists lo hi, lo < hi <= n /\ p = [PSlice lo hi].
Proof.
  unfold slices. rewrite slices_from_In. split.
  - intros (l & H & Hp). apply seq_slices_hi_In in Hp as (j & Hj & ->). exists l, (l + j). split; [lia|reflexivity].
  - intros (lo & hi & H & ->). exists lo. split; [lia|]. apply seq_slices_hi_In. exists (hi - lo). split; [lia|].
    replace (lo + (hi - lo)) with hi by lia. reflexivity.
Qed.

Lemma objects_list es : objects (NList es) = objs_elems objects 0 es.
Proof. reflexivity. Qed.
Lemma eager_list es : eager (NList es) = objs_elems eager 0 es.
Proof. reflexivity. Qed.
Lemma objects_children t cs : children t = Some cs -> objects t = [] :: objs_kids objects 0 cs.
Proof. destruct t; try discriminate; intros E; inversion E; reflexivity. Qed.

Lemma objects_nil t : In [] (objects t) <-> is_list t = false.
Proof.
  destruct t; try (split; [reflexivity|intros _; now left]).
  rewrite objects_list. split; [intros H; now apply elems_nil in H|discriminate].
Qed.
Lemma objects_cons t s p : In (s :: p) (objects t) <-> exists tk c, Step t s tk c /\ In p (objects c).
Proof.
  destruct (children t) as [cs|] eqn:Ec.
  - rewrite (objects_children _ _ Ec), <- (kids_In objects t cs s p Ec). cbn [In].
    split; [intros [H|H]; [discriminate H|exact H]|now right].
  - destruct t; try discriminate Ec.
    + split; [intros [H|[]]; discriminate H|]. intros (tk & c & S & _). inversion S; discriminate.
    + cbn [objects In]. rewrite slices_In. split.
      * intros [H|(lo & hi & B & E)]; [discriminate H|]. inversion E; subst.
        exists (TSlice lo hi), (NSlice lo hi). split; [now constructor|now left].
      * intros (tk & c & S & Hp). inversion S; subst; [discriminate|]. destruct Hp as [<-|[]]. right. eauto.
    + rewrite objects_list. apply elems_In.
    + split; [intros [H|[]]; discriminate H|]. intros (tk & c & S & _). inversion S; discriminate.
Qed.

Lemma is_object_nochild t s p' : children t = None -> is_elem s = false -> (forall lo hi, s <> PSlice lo hi) ->
  is_object t (s :: p') = false.
Proof.
  intros Ec Hs NS. destruct s as [k|i|lo hi]; [|discriminate|exfalso; eapply NS; reflexivity].
  rewrite is_object_cons. unfold step. now rewrite Ec.
Qed.

Theorem objects_spec t : forall p, In p (objects t) <-> is_object t p = true.
Proof.
  intros p. revert t. induction p as [|s p IH]; intros t.
  - rewrite objects_nil. unfold is_object; cbn. now rewrite negb_true_iff.
  - rewrite objects_cons, is_object_cons. split.
    + intros (tk & c & S & Hp). apply step_iff in S. rewrite S. now apply IH.
    + destruct (step t s) as [[tk c]|] eqn:Es; [|discriminate]. intros O.
      exists tk, c. split; [now apply step_iff|now apply IH].
Qed.

Corollary objects_names_distinct t p q : wf t = true -> In p (objects t) -> In q (objects t) ->
  full_name t p = full_name t q -> p = q.
Proof. intros W Hp Hq. apply full_name_inj; auto; now apply objects_spec. Qed.

(* the printed names of all objects.  That elaborating the same construction again gives the same names holds in the
   model because this is a function of the tree alone *)
Definition names (t : node) : list string := map (full_name t) (objects t).

(* objects existing right after construction are objects *)
Lemma eager_nil t : In [] (eager t) -> is_list t = false.
Proof. destruct t; try reflexivity. rewrite eager_list. intros H. now apply elems_nil in H. Qed.
Lemma eager_cons t s p : In (s :: p) (eager t) -> exists tk c, Step t s tk c /\ In p (eager c).
Proof.
  destruct t; try (intros [H|[]]; discriminate H).
  - intros [H|H]; [discriminate H|].
    now apply (kids_In eager (NComp cs) cs s p eq_refl).
  - intros [H|H]; [discriminate H|].
    now apply (kids_In eager (NIfc cs) cs s p eq_refl).
  - rewrite eager_list. apply elems_In.
Qed.
Theorem eager_is_object t : forall p, In p (eager t) -> is_object t p = true.
Proof.
  intros p. revert t. induction p as [|s p IH]; intros t H.
  - apply eager_nil in H. unfold is_object; cbn. now rewrite H.
  - apply eager_cons in H as (tk & c & S & Hp). apply step_iff in S. rewrite is_object_cons, S. now apply IH.
Qed.

Lemma tokens_eqb_eq a : forall b, tokens_eqb a b = true -> a = b.
Proof.
  induction a as [|x a IH]; intros [|y b] H; cbn in H; try discriminate; [reflexivity|].
  apply andb_true_iff in H as [H1 H2]. rewrite (IH _ H2). f_equal.
  destruct x, y; cbn in H1; try discriminate.
  - apply String.eqb_eq in H1. now subst.
  - apply Nat.eqb_eq in H1. now subst.
  - apply andb_true_iff in H1 as [A B]. apply Nat.eqb_eq in A. apply Nat.eqb_eq in B. now subst.
Qed.

(* an accepted observation names an object of the model whose printed model name is exactly the observed repr.
   Only the name tests of obs_ok are used: its kind, parent, level, host and top-level-signal tests compare with model
   functions whose meaning is given by parent_prefix, level_parent, host_spec and tls_spec *)
Theorem obs_ok_sound t o : wf t = true -> obs_ok t o = true ->
  exists p, is_object t p = true /\ full_name t p = o_name o /\
            parse_name (o_name o) = Some (name_of t p) /\ resolve t (name_of t p) = Some p.
Proof.
  intros W H. unfold obs_ok in H. destruct (parse_name (o_name o)) as [ts|] eqn:Ep; [|discriminate].
  destruct (resolve t ts) as [p|] eqn:Er; [|discriminate].
  apply andb_true_iff in H as [H _]. apply andb_true_iff in H as [H _]. apply andb_true_iff in H as [H _].
  apply andb_true_iff in H as [H _]. apply andb_true_iff in H as [H _]. apply andb_true_iff in H as [H Hn].
  apply andb_true_iff in H as [Ho Ht]. exists p. apply tokens_eqb_eq in Ht. apply String.eqb_eq in Hn.
  repeat split; auto; [now rewrite Ht|]. apply resolve_name; auto.
Qed.
