(* Bits/BitsLemmas.v — Z read as a bit vector: masking is mod 2^n, shifting is multiplying / dividing by 2^k, a value is
   below 2^n exactly when it has no bit at or above n, and what a slice and a splice are bit by bit.  No axioms. *)
From PV Require Import Base.Prelude Bits.BitsSpec.
Open Scope Z_scope.

Lemma pow2_pos n : 0 < 2 ^ n \/ (n < 0 /\ 2 ^ n = 0).
Proof. destruct (Z_lt_le_dec n 0); [right; split; [lia|apply Z.pow_neg_r; lia]|left; apply Z.pow_pos_nonneg; lia]. Qed.

Lemma pow2_gt0 n : 0 <= n -> 0 < 2 ^ n.
Proof. intros; apply Z.pow_pos_nonneg; lia. Qed.

Lemma ones_eq n : 2 ^ n - 1 = Z.ones n.
Proof. rewrite Z.ones_equiv. lia. Qed.

Lemma land_mask x n : 0 <= n -> Z.land x (2 ^ n - 1) = x mod 2 ^ n.
Proof. intros. rewrite ones_eq. apply Z.land_ones. lia. Qed.

Lemma shiftl_mul x k : 0 <= k -> Z.shiftl x k = x * 2 ^ k.
Proof. intros; apply Z.shiftl_mul_pow2; lia. Qed.

Lemma shiftr_div x k : 0 <= k -> Z.shiftr x k = x / 2 ^ k.
Proof. intros; apply Z.shiftr_div_pow2; lia. Qed.

Lemma pow2_le_mono a b : 0 <= a <= b -> 2 ^ a <= 2 ^ b.
Proof. intros; apply Z.pow_le_mono_r; lia. Qed.

Lemma pow2_double n : 0 < n -> 2 ^ n = 2 * 2 ^ (n - 1).
Proof. intros Hn. replace n with ((n - 1) + 1) at 1 by lia. rewrite Z.pow_add_r by lia. lia. Qed.

Lemma msb_div n u : 0 < n -> 2 ^ (n - 1) <= u < 2 ^ n -> u / 2 ^ (n - 1) = 1.
Proof.
  intros Hn Hu. rewrite (pow2_double n Hn) in Hu.
  symmetry. apply (Z.div_unique u (2 ^ (n - 1)) 1 (u - 2 ^ (n - 1))); lia.
Qed.

Lemma land_1 x : Z.land x 1 = x mod 2.
Proof. exact (Z.land_ones x 1 Z.le_0_1). Qed.

Lemma wfn_nonneg n : wfn n -> 0 <= n.
Proof. unfold wfn. lia. Qed.

Lemma inrange_mod n x : 0 <= n -> inrange n (x mod 2 ^ n).
Proof. intros Hn. apply Z.mod_pos_bound, pow2_gt0, Hn. Qed.

Lemma mod2_range x : 0 <= x mod 2 < 2 ^ 1.
Proof. exact (Z.mod_pos_bound x 2 eq_refl). Qed.

Lemma land1_range x : 0 <= Z.land x 1 < 2 ^ 1.
Proof. rewrite land_1. apply mod2_range. Qed.

(* a value is below 2^n exactly when it has no bit at or above n *)
Lemma testbit_high a n i : 0 <= n -> 0 <= a < 2 ^ n -> n <= i -> Z.testbit a i = false.
Proof. intros Hn Ha Hi. rewrite <- (Z.mod_small a (2 ^ n)) by lia. apply Z.mod_pow2_bits_high; lia. Qed.

(* a negative value not below -2^k has every bit at or above k set *)
Lemma testbit_neg_high x k i : 0 <= k -> - 2 ^ k <= x < 0 -> k <= i -> Z.testbit x i = true.
Proof.
  intros Hk Hx Hi. replace x with (Z.lnot (- x - 1)) by (unfold Z.lnot; lia).
  rewrite Z.lnot_spec by lia. rewrite (testbit_high (- x - 1) k i) by lia. reflexivity.
Qed.

Lemma inrange_bits n a : 0 <= n -> (forall i, n <= i -> Z.testbit a i = false) -> 0 <= a < 2 ^ n.
Proof.
  intros Hn H. replace a with (a mod 2 ^ n); [apply Z.mod_pos_bound, pow2_gt0, Hn|].
  apply Z.bits_inj'. intros i Hi. destruct (Z.ltb_spec i n).
  - apply Z.mod_pow2_bits_low; lia.
  - rewrite Z.mod_pow2_bits_high by lia. symmetry. apply H; lia.
Qed.

Lemma inrange_bits_eq n a b : 0 <= n -> 0 <= a < 2 ^ n -> 0 <= b < 2 ^ n ->
  (forall i, 0 <= i < n -> Z.testbit a i = Z.testbit b i) -> a = b.
Proof.
  intros Hn Ha Hb H. apply Z.bits_inj'. intros i Hi. destruct (Z.ltb_spec i n).
  - apply H; lia.
  - rewrite (testbit_high a n i), (testbit_high b n i) by lia. reflexivity.
Qed.

Lemma land_range a b n : 0 <= n -> 0 <= a < 2 ^ n -> 0 <= b < 2 ^ n -> 0 <= Z.land a b < 2 ^ n.
Proof.
  intros Hn Ha Hb. apply inrange_bits; [lia|]. intros i Hi.
  rewrite Z.land_spec, (testbit_high a n i) by lia. reflexivity.
Qed.

Lemma lor_range a b n : 0 <= n -> 0 <= a < 2 ^ n -> 0 <= b < 2 ^ n -> 0 <= Z.lor a b < 2 ^ n.
Proof.
  intros Hn Ha Hb. apply inrange_bits; [lia|]. intros i Hi.
  rewrite Z.lor_spec, (testbit_high a n i), (testbit_high b n i) by lia. reflexivity.
Qed.

Lemma lxor_range a b n : 0 <= n -> 0 <= a < 2 ^ n -> 0 <= b < 2 ^ n -> 0 <= Z.lxor a b < 2 ^ n.
Proof.
  intros Hn Ha Hb. apply inrange_bits; [lia|]. intros i Hi.
  rewrite Z.lxor_spec, (testbit_high a n i), (testbit_high b n i) by lia. reflexivity.
Qed.

(* or-ing a value below 2^k under a shift by k is adding it *)
Lemma lor_shiftl_add v k u : 0 <= k -> 0 <= u < 2 ^ k -> Z.lor (Z.shiftl v k) u = v * 2 ^ k + u.
Proof.
  intros Hk Hu. rewrite <- shiftl_mul by lia.
  assert (L : Z.land (Z.shiftl v k) u = 0).
  { apply Z.bits_inj'. intros i Hi. rewrite Z.land_spec, Z.bits_0. destruct (Z.ltb_spec i k).
    - rewrite Z.shiftl_spec_low by lia. reflexivity.
    - rewrite (testbit_high u k i) by lia. apply Bool.andb_false_r. }
  rewrite <- Z.lxor_lor by exact L. symmetry. apply Z.add_nocarry_lxor, L.
Qed.

Lemma lnot_mask a n : 0 <= n -> 0 <= a < 2 ^ n -> Z.land (Z.lnot a) (2 ^ n - 1) = 2 ^ n - 1 - a.
Proof.
  intros Hn Ha. rewrite land_mask by lia. unfold Z.lnot.
  replace (Z.pred (- a)) with ((2 ^ n - 1 - a) + (-1) * 2 ^ n) by lia.
  rewrite Z.mod_add by lia. apply Z.mod_small. lia.
Qed.

Lemma shl_overflow a b n : 0 <= n -> n <= b -> (a * 2 ^ b) mod 2 ^ n = 0.
Proof.
  intros Hn Hb. replace b with (n + (b - n)) by lia. rewrite Z.pow_add_r by lia.
  replace (a * (2 ^ n * 2 ^ (b - n))) with ((a * 2 ^ (b - n)) * 2 ^ n) by lia.
  apply Z.mod_mul. pose proof (pow2_gt0 n Hn). lia.
Qed.

Lemma shr_overflow a b n : 0 <= n -> 0 <= a < 2 ^ n -> n <= b -> a / 2 ^ b = 0.
Proof.
  intros Hn Ha Hb. apply Z.div_small. pose proof (pow2_le_mono n b). lia.
Qed.

Lemma div_range a b n : 0 <= a < 2 ^ n -> 0 <= b -> 0 <= a / b < 2 ^ n.
Proof.
  intros Ha Hb. destruct (Z.eq_dec b 0) as [->|Hne]; [rewrite Zdiv_0_r; lia|].
  split; [apply Z.div_pos; lia|]. apply Z.le_lt_trans with a; [|lia].
  apply Z.div_le_upper_bound; [lia|]. nia.
Qed.

Lemma mod_range a b n : 0 <= a < 2 ^ n -> 0 < b -> 0 <= a mod b < 2 ^ n.
Proof.
  intros Ha Hb. pose proof (Z.mod_pos_bound a b Hb). split; [lia|].
  apply Z.le_lt_trans with a; [|lia]. apply Z.mod_le; lia.
Qed.

Lemma mask_shift lo hi : 0 <= lo <= hi ->
  Z.shiftl 1 hi - Z.shiftl 1 lo = Z.shiftl (Z.ones (hi - lo)) lo.
Proof.
  intros H. rewrite !shiftl_mul by lia. rewrite Z.ones_equiv, !Z.mul_1_l.
  replace hi with ((hi - lo) + lo) at 1 by lia. rewrite Z.pow_add_r by lia. lia.
Qed.

Lemma testbit_mask_shift lo hi i : 0 <= lo <= hi -> 0 <= i ->
  Z.testbit (Z.shiftl (Z.ones (hi - lo)) lo) i = (lo <=? i) && (i <? hi).
Proof.
  intros H Hi. rewrite Z.shiftl_spec by lia.
  destruct (Z.leb_spec lo i); cbn.
  - destruct (Z.ltb_spec i hi).
    + apply Z.ones_spec_low; lia.
    + apply Z.ones_spec_high; lia.
  - apply Z.testbit_neg_r; lia.
Qed.

Lemma splice_testbit u lo hi w i : 0 <= lo <= hi -> 0 <= i -> 0 <= w < 2 ^ (hi - lo) ->
  Z.testbit (splice u lo hi w) i =
    if (lo <=? i) && (i <? hi) then Z.testbit w (i - lo) else Z.testbit u i.
Proof.
  intros H Hi Hw. unfold splice.
  rewrite Z.lor_spec, Z.land_spec, Z.lnot_spec, testbit_mask_shift, Z.shiftl_spec by lia.
  destruct (Z.leb_spec lo i); cbn.
  - destruct (Z.ltb_spec i hi); cbn.
    + rewrite Bool.andb_false_r. reflexivity.
    + rewrite Bool.andb_true_r, (testbit_high w (hi - lo)) by lia. apply Bool.orb_false_r.
  - rewrite Bool.andb_true_r. rewrite (Z.testbit_neg_r w) by lia. apply Bool.orb_false_r.
Qed.

Lemma slice_testbit u lo w i : 0 <= lo -> 0 <= w -> 0 <= i ->
  Z.testbit ((u / 2 ^ lo) mod 2 ^ w) i = if i <? w then Z.testbit u (lo + i) else false.
Proof.
  intros Hlo Hw Hi. rewrite <- shiftr_div by lia. rewrite <- Z.land_ones by lia.
  rewrite Z.land_spec, Z.shiftr_spec by lia.
  destruct (Z.ltb_spec i w).
  - rewrite Z.ones_spec_low by lia. rewrite Bool.andb_true_r. f_equal; lia.
  - rewrite Z.ones_spec_high by lia. apply Bool.andb_false_r.
Qed.

(* writing bits [l, h) of the field that occupies [a, a + w) and writing the field back is one write of bits [a + l, a + h) *)
Lemma splice_field S a w l h u : 0 <= a -> 0 <= l -> l <= h -> h <= w -> 0 <= u < 2 ^ (h - l) ->
  splice S a (a + w) (splice ((S / 2 ^ a) mod 2 ^ w) l h u) = splice S (a + l) (a + h) u.
Proof.
  intros Ha Hl Hlh Hhw Hu.
  assert (0 <= splice ((S / 2 ^ a) mod 2 ^ w) l h u < 2 ^ (a + w - a)) as Hin.
  { replace (a + w - a) with w by lia. apply inrange_bits; [lia|]. intros i Hi. rewrite splice_testbit by lia.
    replace ((l <=? i) && (i <? h)) with false by lia. apply Z.mod_pow2_bits_high. lia. }
  apply Z.bits_inj'. intros i Hi.
  rewrite (splice_testbit S a (a + w)) by (try lia; exact Hin).
  rewrite (splice_testbit S (a + l) (a + h)) by (try lia; replace (a + h - (a + l)) with (h - l) by lia; exact Hu).
  destruct ((a <=? i) && (i <? a + w)) eqn:C1.
  - rewrite splice_testbit by lia.
    destruct ((l <=? i - a) && (i - a <? h)) eqn:C2.
    + replace ((a + l <=? i) && (i <? a + h)) with true by lia. f_equal. lia.
    + replace ((a + l <=? i) && (i <? a + h)) with false by lia.
      rewrite slice_testbit by lia. replace (i - a <? w) with true by lia. f_equal. lia.
  - replace ((a + l <=? i) && (i <? a + h)) with false by lia. reflexivity.
Qed.

Lemma splice_range u lo hi w n : 0 <= lo -> lo < hi -> hi <= n -> 0 <= u < 2 ^ n -> 0 <= w < 2 ^ (hi - lo) ->
  0 <= splice u lo hi w < 2 ^ n.
Proof.
  intros Hlo Hlh Hhn Hu Hw. apply inrange_bits; [lia|]. intros i Hi. rewrite splice_testbit by lia.
  destruct (Z.ltb_spec i hi); [lia|]. rewrite Bool.andb_false_r. apply (testbit_high u n); lia.
Qed.
