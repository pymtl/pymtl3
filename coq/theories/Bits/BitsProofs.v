(* Bits/BitsProofs.v — the generated model of PythonBits.py equals the specification,
   for every width 0<n<1024 and every operand (unbounded Z).  No axioms.
   No proof names a generated binder: each first brings the generated body into a shape that depends only on its
   structure (unfolding its let-bindings), so the file survives a re-generation that changes no behaviour. *)
From PV Require Import Base.Prelude Bits.BitsSpec Bits.BitsLemmas Bits.SpecFacts Gen.BitsGen.
Open Scope Z_scope.

Lemma upper_tbl_eq i : upper_tbl i = 2 ^ Z.of_nat i - 1.
Proof.
  induction i as [|j IH]; [reflexivity|].
  destruct j as [|k]; [reflexivity|].
  change (upper_tbl (S (S k))) with (Z.add (Z.shiftl (upper_tbl (S k)) 1) 1).
  rewrite IH. rewrite shiftl_mul by lia.
  replace (Z.of_nat (S (S k))) with (Z.of_nat (S k) + 1) by lia.
  rewrite Z.pow_add_r by lia. lia.
Qed.

Lemma upper_eq n : 0 <= n -> upper n = 2 ^ n - 1.
Proof. intros; unfold upper. rewrite upper_tbl_eq. rewrite Z2Nat.id by lia. reflexivity. Qed.

Lemma lower_tbl_eq i : (0 < i)%nat -> lower_tbl i = - 2 ^ (Z.of_nat i - 1).
Proof.
  induction i as [|j IH]; [lia|]. intros _.
  destruct j as [|k]; [reflexivity|].
  change (lower_tbl (S (S k))) with (Z.shiftl (lower_tbl (S k)) 1).
  rewrite IH by lia. rewrite shiftl_mul by lia.
  replace (Z.of_nat (S (S k)) - 1) with ((Z.of_nat (S k) - 1) + 1) by lia.
  rewrite Z.pow_add_r by lia. lia.
Qed.

Lemma lower_eq n : 0 < n -> lower n = - 2 ^ (n - 1).
Proof. intros; unfold lower. rewrite lower_tbl_eq by lia. rewrite Z2Nat.id by lia. reflexivity. Qed.

(* the operand guards of the generated code are the specification's, negated *)
Lemma int_guard n k : 0 <= n -> (k <? 0) || (k >? upper n) = negb (int_operand_ok n k).
Proof. intros. rewrite upper_eq by lia. unfold int_operand_ok, vhi. lia. Qed.

Lemma store_guard n k : 0 < n -> (k <? lower n) || (k >? upper n) = negb (fits n k).
Proof. intros. rewrite upper_eq, lower_eq by lia. unfold fits, vlo, vhi. lia. Qed.

Lemma bit_guard n k : (k >=? n) || (k <? 0) = negb ((0 <=? k) && (k <? n)).
Proof. lia. Qed.

(* the arm for an int operand k: x is what the code computes, y what the specification says *)
Lemma int_arm n k (x y : res (Z * Z)) : wfn n -> (inrange n k -> x = y) ->
  (if (k <? 0) || (k >? upper n) then Err EValue else x) = if int_operand_ok n k then y else Err EValue.
Proof.
  intros Hn H. rewrite int_guard by (unfold wfn in Hn; lia).
  destruct (int_operand_okP n k); cbn [negb]; [apply H; assumption|reflexivity].
Qed.

(* Every binary operator and comparison generated from PythonBits.py is, up to its let-bindings, of this
   shape: a Bits operand of another width and an int outside 0 .. 2^n-1 are rejected, otherwise fb / fi
   compute the result. *)
Definition dispatch (n : Z) (fb fi : Z -> res (Z * Z)) (e : res (Z * Z)) (o : operand) : res (Z * Z) :=
  match o with
  | OBits m b => if negb (m =? n) then Err EValue else fb b
  | OInt k => if (k <? 0) || (k >? upper n) then Err EValue else fi k
  | OOther => e
  end.

Lemma dispatch_ok n (s : Z -> res (Z * Z)) fb fi e o : wfn n -> owf o ->
  (forall b, inrange n b -> fb b = s b) -> (forall k, inrange n k -> fi k = s k) ->
  dispatch n fb fi e o =
    match o with
    | OBits m b => if m =? n then s b else Err EValue
    | OInt k => if int_operand_ok n k then s k else Err EValue
    | OOther => e
    end.
Proof.
  intros Hn Ho Hb Hi. destruct o as [m b|k|]; cbn [dispatch owf] in *; [| |reflexivity].
  - destruct (Z.eqb_spec m n) as [->|]; cbn [negb]; [apply Hb; tauto|reflexivity].
  - apply int_arm; [exact Hn|apply Hi].
Qed.

Lemma dispatch_binop op n a fb fi o : wfn n -> owf o ->
  (forall b, inrange n b -> fb b = bind (arith op n a b) (fun r => Ok (n, r))) ->
  (forall k, inrange n k -> fi k = bind (arith op n a k) (fun r => Ok (n, r))) ->
  dispatch n fb fi (Err EType) o = spec_binop op n a o.
Proof. exact (dispatch_ok n _ fb fi _ o). Qed.

Lemma dispatch_cmp op n a fb fi o : wfn n -> owf o ->
  (forall b, inrange n b -> fb b = Ok (1, b2z (cmp op a b))) ->
  (forall k, inrange n k -> fi k = Ok (1, b2z (cmp op a k))) ->
  dispatch n fb fi (spec_cmp op n a OOther) o = spec_cmp op n a o.
Proof. exact (dispatch_ok n _ fb fi _ o). Qed.

(* `arms L` reduces an operator, by the dispatch lemma L, to its two computing arms: the goal becomes
   "code on operand b = specification on operand b" for an in-range b, once for a Bits and once for an int.
   `apply L` succeeds because e.g. `bits_add n a nx o` unfolds (delta, zeta) to a `match o with OBits .. | OInt .. | OOther ..`
   that is literally `dispatch n (fun b => ..) (fun k => ..) e o`: unification reads fb and fi off the match branches. *)
Local Ltac arms L :=
  intros Ho; apply L; [assumption|assumption| |];
  intros b Hb; unfold wfn, inrange in *; cbn [arith cmp bind].

Section WithWidth.
Variables (n a nx : Z).
Hypothesis Hn : wfn n.
Hypothesis Ha : inrange n a.

(* the Or and CLe instances of binop_ok / cmp_ok below, which use them for these two cases *)
Lemma or_ok o : owf o -> bits_or n a nx o = spec_binop Or n a o.
Proof using Hn. arms dispatch_binop; reflexivity. Qed.
Lemma le_ok o : owf o -> bits_le n a nx o = spec_cmp CLe n a o.
Proof using Hn. arms (dispatch_cmp CLe); reflexivity. Qed.

(* the reflected forms take the int value of either operand kind *)
Lemma rsub_ok o : bits_rsub n a nx o = spec_rbinop Sub n a o.
Proof.
  destruct o as [m k|k|]; [| |reflexivity].
  all: apply int_arm; [exact Hn|]; intros Hk; unfold wfn in *; cbn [arith bind].
  all: rewrite upper_eq, land_mask by lia; reflexivity.
Qed.
Lemma rfloordiv_ok o : bits_rfloordiv n a nx o = spec_rbinop FloorDiv n a o.
Proof.
  destruct o as [m k|k|]; [| |reflexivity].
  all: apply int_arm; [exact Hn|]; intros Hk; cbn [arith]; destruct (a =? 0); reflexivity.
Qed.
Lemma rmod_ok o : bits_rmod n a nx o = spec_rbinop Mod n a o.
Proof.
  destruct o as [m k|k|]; [| |reflexivity].
  all: apply int_arm; [exact Hn|]; intros Hk; cbn [arith]; destruct (a =? 0); reflexivity.
Qed.

Lemma invert_ok : bits_invert n a nx = spec_invert n a.
Proof.
  unfold wfn, inrange in *. unfold bits_invert, spec_invert. cbv zeta.
  rewrite upper_eq, lnot_mask by lia. reflexivity.
Qed.

End WithWidth.

(* the generated function for each operator of the specification *)
Definition gen_binop (op : binop) : Z -> Z -> Z -> operand -> res (Z * Z) :=
  match op with
  | Add => bits_add | Sub => bits_sub | Mul => bits_mul | And => bits_and | Or => bits_or | Xor => bits_xor
  | FloorDiv => bits_floordiv | Mod => bits_mod | LShift => bits_lshift | RShift => bits_rshift
  end.
Definition gen_cmp (op : cmpop) : Z -> Z -> Z -> operand -> res (Z * Z) :=
  match op with
  | CEq => bits_eq | CNe => bits_ne | CLt => bits_lt | CLe => bits_le | CGt => bits_gt | CGe => bits_ge
  end.

Theorem binop_ok op n a nx o : wfn n -> inrange n a -> owf o -> gen_binop op n a nx o = spec_binop op n a o.
Proof.
  intros Hn Ha. destruct op; cbn [gen_binop].
  - (* Add *) arms dispatch_binop; rewrite upper_eq, land_mask by lia; reflexivity.
  - (* Sub *) arms dispatch_binop; rewrite upper_eq, land_mask by lia; reflexivity.
  - (* Mul *) arms dispatch_binop; rewrite upper_eq, land_mask by lia; reflexivity.
  - (* And *) arms dispatch_binop; reflexivity.
  - (* Or *) exact (or_ok n a nx Hn o).
  - (* Xor *) arms dispatch_binop; reflexivity.
  - (* FloorDiv: the quotient of two Bits operands is masked by the code; it is in range anyway *)
    arms dispatch_binop; destruct (b =? 0); try reflexivity.
    rewrite upper_eq, land_mask by lia. rewrite Z.mod_small by (apply div_range; lia). reflexivity.
  - (* Mod: likewise *)
    arms dispatch_binop; destruct (Z.eqb_spec b 0); try reflexivity.
    rewrite upper_eq, land_mask by lia. rewrite Z.mod_small by (apply mod_range; lia). reflexivity.
  - (* LShift *)
    arms dispatch_binop; rewrite Z.geb_leb; destruct (n <=? b); try reflexivity;
      rewrite (proj2 (Z.ltb_ge b 0)), upper_eq, land_mask, shiftl_mul by lia; reflexivity.
  - (* RShift: the code shifts without a guard; a shift by n or more gives 0 *)
    arms dispatch_binop; rewrite (proj2 (Z.ltb_ge b 0)), shiftr_div by lia;
      destruct (Z.leb_spec n b); try reflexivity; rewrite (shr_overflow a b n) by lia; reflexivity.
Qed.

Theorem cmp_ok op n a nx o : wfn n -> owf o -> gen_cmp op n a nx o = spec_cmp op n a o.
Proof.
  intros Hn. destruct op; cbn [gen_cmp].
  - arms (dispatch_cmp CEq); reflexivity.
  - arms (dispatch_cmp CNe); reflexivity.
  - arms (dispatch_cmp CLt); reflexivity.
  - exact (le_ok n a nx Hn o).
  - arms (dispatch_cmp CGt); rewrite Z.gtb_ltb; reflexivity.
  - arms (dispatch_cmp CGe); rewrite Z.geb_leb; reflexivity.
Qed.

(* = BitsLemmas.land_mask *)
Lemma mod_pow_nonneg_eq k n : 0 <= n -> Z.land k (2 ^ n - 1) = k mod 2 ^ n.
Proof. intros; apply land_mask; lia. Qed.

(* a store into a width-n field (@=, <<=); f continues with the stored value.  The code raises ValueError
   with two different messages for a narrower and for a wider Bits value. *)
Lemma store_ok {A} n v (f : Z -> res A) : 0 < n ->
  match v with
  | OBits m b => if negb (m =? n) then (if m <? n then Err EValue else Err EValue) else f b
  | OInt k => if (k <? lower n) || (k >? upper n) then Err EValue else f (Z.land k (upper n))
  | OOther => Err EType
  end = bind (spec_store n v) f.
Proof.
  intros Hn. destruct v as [m b|k|]; cbn [spec_store]; [| |reflexivity].
  - destruct (m =? n); cbn [negb bind]; [reflexivity|]. destruct (m <? n); reflexivity.
  - rewrite store_guard, upper_eq, land_mask by lia. destruct (fits n k); reflexivity.
Qed.

(* not an instance of store_ok: __init__ compares the widths the other way round (nbits == v.nbits, nbits < v.nbits)
   and has the trunc_int arm *)
Lemma init_ok n v t : bits_init n v t = spec_init n v t.
Proof.
  unfold bits_init, spec_init. cbv zeta. rewrite Z.geb_leb.
  destruct ((n <? 1) || (1024 <=? n)) eqn:E; [reflexivity|]. assert (Hn : 0 < n) by lia.
  destruct v as [m b|k|]; cbn [spec_store]; [| |reflexivity].
  - rewrite (Z.eqb_sym n m). destruct (m =? n); cbn [negb]; [reflexivity|]. destruct (n <? m); reflexivity.
  - rewrite store_guard, upper_eq, land_mask by lia. destruct t; cbn [negb]; [reflexivity|].
    destruct (fits n k); reflexivity.
Qed.

Section Assign.
Variables (n u nx : Z).
Hypothesis Hn : wfn n.

Lemma imatmul_ok v : owf v -> bits_imatmul n u nx v = spec_imatmul n u nx v.
Proof. intros _. exact (store_ok n v (fun u' => Ok (n, u', nx)) (proj1 Hn)). Qed.

Lemma ilshift_ok v : owf v -> bits_ilshift n u nx v = spec_ilshift n u nx v.
Proof. intros _. exact (store_ok n v (fun nx' => Ok (n, u, nx')) (proj1 Hn)). Qed.

Lemma flip_ok : bits_flip n u nx = spec_flip n u nx.
Proof. reflexivity. Qed.

Lemma clone_ok : bits_clone n u nx = Ok (n, u).
Proof. reflexivity. Qed.
Lemma deepcopy_ok : bits_deepcopy n u nx = Ok (n, u).
Proof. reflexivity. Qed.
Lemma uint_ok : bits_uint n u nx = Ok u /\ bits_int_ n u nx = Ok u /\ bits_index n u nx = Ok u.
Proof. repeat split. Qed.
Lemma hash_ok : bits_hash n u nx = Ok (n, u).
Proof. reflexivity. Qed.
Lemma bool_ok : bits_bool n u nx = Ok (negb (u =? 0)).
Proof. reflexivity. Qed.

Hypothesis Hu : inrange n u.

(* a set top bit makes the code return -(~u + 1), computed with the Bits operators themselves *)
Lemma sint_ok : bits_sint n u nx = Ok (spec_sint n u).
Proof.
  pose proof Hn as Hn'. pose proof Hu as Hu'. unfold wfn, inrange in Hn', Hu'. unfold bits_sint, spec_sint.
  rewrite (proj2 (Z.ltb_ge (n - 1) 0)), shiftr_div by lia.
  pose proof (pow2_double n ltac:(lia)) as Hp. pose proof (pow2_gt0 (n - 1) ltac:(lia)) as Hq.
  destruct (Z.leb_spec (2 ^ (n - 1)) u).
  - rewrite msb_div by lia. cbn [Z.eqb negb].
    rewrite (invert_ok n u nx Hn Hu). cbn [spec_invert bind fst snd].
    assert (R : inrange n (2 ^ n - 1 - u)) by (unfold inrange; lia).
    rewrite (binop_ok Add n _ 0 (OInt 1) Hn R I : bits_add _ _ _ _ = _). cbn [spec_binop].
    destruct (int_operand_okP n 1) as [|N]; [|unfold inrange in N; lia].
    cbn [arith bind snd]. f_equal.
    replace (2 ^ n - 1 - u + 1) with (2 ^ n - u) by lia. rewrite Z.mod_small by lia. lia.
  - rewrite Z.div_small by lia. reflexivity.
Qed.

End Assign.

Lemma py_or_opt_0 s : py_or_opt s 0 = bound s 0.
Proof. destruct s as [k|]; cbn; [destruct (k =? 0) eqn:E; lia|reflexivity]. Qed.
Lemma py_ifnone_bound s d : py_ifnone_opt s d = bound s d.
Proof. destruct s; reflexivity. Qed.
Lemma truthy_step st : py_truthy_opt st = negb (step_trivial st).
Proof. destruct st; reflexivity. Qed.

(* the read-modify-write expressions of __setitem__ are splice *)
Lemma gen_splice u lo hi w : 0 <= lo < hi ->
  Z.lor (Z.land u (Z.lnot (Z.shiftl 1 hi - Z.shiftl 1 lo))) (Z.shiftl (Z.land w (upper (hi - lo))) lo) =
  splice u lo hi (w mod 2 ^ (hi - lo)).
Proof. intros H. unfold splice. rewrite mask_shift, upper_eq, land_mask by lia. reflexivity. Qed.

Lemma gen_splice_bit u k w :
  Z.lor (Z.land u (Z.lnot (Z.shiftl 1 k))) (Z.shiftl (Z.land w 1) k) = splice u k (k + 1) (w mod 2).
Proof. unfold splice. rewrite land_1. replace (k + 1 - k) with 1 by lia. reflexivity. Qed.

Lemma getitem_ok n u nx i : bits_getitem n u nx i = spec_getitem n u i.
Proof.
  destruct i as [s e st|k]; unfold bits_getitem, spec_getitem; cbv zeta.
  - rewrite py_or_opt_0, truthy_step, (py_ifnone_bound e n). destruct (negb (step_trivial st)); [reflexivity|].
    generalize (bound s 0) (bound e n); intros lo hi. fold (valid_range n lo hi).
    destruct (valid_rangeP n lo hi) as [V|]; [|reflexivity].
    rewrite (proj2 (Z.ltb_ge lo 0)), upper_eq, land_mask, shiftr_div by lia. reflexivity.
  - rewrite bit_guard. destruct ((0 <=? k) && (k <? n)) eqn:E; cbn [negb]; [|reflexivity].
    rewrite (proj2 (Z.ltb_ge k 0)), land_1, shiftr_div by lia. reflexivity.
Qed.

(* the generated text repeats the tests start < 0, stop < 0 after the range check: they are dead *)
Lemma setitem_ok n u nx i v : owf v -> bits_setitem n u nx i v = spec_setitem n u nx i v.
Proof.
  intros Hv. destruct i as [s e st|k]; unfold bits_setitem, spec_setitem; cbv zeta.
  - rewrite py_or_opt_0, truthy_step, (py_ifnone_bound e n). destruct (negb (step_trivial st)); [reflexivity|].
    generalize (bound s 0) (bound e n); intros lo hi. fold (valid_range n lo hi).
    destruct (valid_rangeP n lo hi) as [V|]; [|reflexivity].
    rewrite !(proj2 (Z.ltb_ge lo 0)), !(proj2 (Z.ltb_ge hi 0)) by lia.
    destruct v as [m b|j|]; cbn [spec_store owf] in *; [| |reflexivity].
    + unfold inrange in Hv. destruct (Z.eqb_spec m (hi - lo)) as [->|]; cbn [negb bind].
      * rewrite gen_splice, (Z.mod_small b) by lia. reflexivity.
      * destruct (m <? hi - lo); reflexivity.
    + rewrite gen_splice, store_guard by lia. destruct (fits (hi - lo) j); reflexivity.
  - rewrite bit_guard. destruct ((0 <=? k) && (k <? n)) eqn:E; cbn [negb]; [|reflexivity].
    rewrite !(proj2 (Z.ltb_ge k 0)) by lia. destruct v as [m b|j|]; [| |reflexivity].
    all: rewrite Z.gtb_ltb, gen_splice_bit; reflexivity.
Qed.
