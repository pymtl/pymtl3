(* Bits/BitsSpec.v — the mathematical specification of fixed-width values (properties C04, C05).
   Hand-written from docs/ref/datatypes.rst and the property text, NOT from the code:
   the generated model Gen/BitsGen.v is proved equal to this in BitsProofs.v, and the
   implementation is run against it by harness/c04.py, c05.py. *)
From PV Require Import Base.Prelude.
Open Scope Z_scope.

Definition wfn (n : Z) : Prop := 0 < n < 1024.
Definition inrange (n u : Z) : Prop := 0 <= u < 2 ^ n.
Definition vlo (n : Z) : Z := - 2 ^ (n - 1).     (* least accepted integer  *)
Definition vhi (n : Z) : Z := 2 ^ n - 1.         (* greatest accepted integer *)

Definition owf (o : operand) : Prop :=
  match o with OBits m b => wfn m /\ inrange m b | _ => True end.

Inductive binop : Set := Add | Sub | Mul | And | Or | Xor | FloorDiv | Mod | LShift | RShift.
Inductive cmpop : Set := CEq | CNe | CLt | CLe | CGt | CGe.

(* the mathematically defined unsigned result reduced modulo 2^n, on two in-range values *)
Definition arith (op : binop) (n a b : Z) : res Z :=
  match op with
  | Add => Ok ((a + b) mod 2 ^ n)
  | Sub => Ok ((a - b) mod 2 ^ n)
  | Mul => Ok ((a * b) mod 2 ^ n)
  | And => Ok (Z.land a b)
  | Or  => Ok (Z.lor a b)
  | Xor => Ok (Z.lxor a b)
  | FloorDiv => if b =? 0 then Err EZeroDiv else Ok (a / b)
  | Mod      => if b =? 0 then Err EZeroDiv else Ok (a mod b)
  (* guarded so that the definition is computable for huge shift amounts;
     SpecFacts.arith_lshift_math / arith_rshift_math show the guards do not change the value *)
  | LShift => Ok (if n <=? b then 0 else (a * 2 ^ b) mod 2 ^ n)
  | RShift => Ok (if n <=? b then 0 else a / 2 ^ b)
  end.

Definition int_operand_ok (n k : Z) : bool := (0 <=? k) && (k <=? vhi n).

(* x op other *)
Definition spec_binop (op : binop) (n a : Z) (o : operand) : res (Z * Z) :=
  match o with
  | OBits m b => if m =? n then bind (arith op n a b) (fun r => Ok (n, r)) else Err EValue
  | OInt k    => if int_operand_ok n k then bind (arith op n a k) (fun r => Ok (n, r)) else Err EValue
  | OOther    => Err EType
  end.

(* other op x  (reflected form: Python only calls it with a non-Bits left operand; if called
   directly with a Bits the code converts it with int(), which the spec mirrors) *)
Definition spec_rbinop (op : binop) (n a : Z) (o : operand) : res (Z * Z) :=
  match o with
  | OBits _ k | OInt k => if int_operand_ok n k then bind (arith op n k a) (fun r => Ok (n, r)) else Err EValue
  | OOther    => Err EType
  end.

Definition cmp (op : cmpop) (a b : Z) : bool :=
  match op with
  | CEq => a =? b | CNe => negb (a =? b) | CLt => a <? b | CLe => a <=? b | CGt => b <? a | CGe => b <=? a
  end.

Definition spec_cmp (op : cmpop) (n a : Z) (o : operand) : res (Z * Z) :=
  match o with
  | OBits m b => if m =? n then Ok (1, b2z (cmp op a b)) else Err EValue
  | OInt k    => if int_operand_ok n k then Ok (1, b2z (cmp op a k)) else Err EValue
  | OOther    => match op with CEq => Ok (1, 0) | CNe => Ok (1, 1) | _ => Err EType end
  end.

Definition spec_invert (n a : Z) : res (Z * Z) := Ok (n, (2 ^ n - 1 - a)).

(* construction / assignment: accept exactly vlo n .. vhi n, store v mod 2^n *)
Definition fits (n k : Z) : bool := (vlo n <=? k) && (k <=? vhi n).

Definition spec_store (n : Z) (v : operand) : res Z :=
  match v with
  | OBits m b => if m =? n then Ok b else Err EValue
  | OInt k    => if fits n k then Ok (k mod 2 ^ n) else Err EValue
  | OOther    => Err EType
  end.

Definition spec_init (n : Z) (v : operand) (trunc_int : bool) : res (Z * Z) :=
  if (n <? 1) || (1024 <=? n) then Err EValue else
  match v with
  | OInt k => if trunc_int then Ok (n, k mod 2 ^ n) else bind (spec_store n v) (fun u => Ok (n, u))
  | _ => bind (spec_store n v) (fun u => Ok (n, u))
  end.

(* state = (nbits, uint, next) *)
Definition spec_imatmul (n u nx : Z) (v : operand) : res (Z * Z * Z) :=
  bind (spec_store n v) (fun u' => Ok (n, u', nx)).
Definition spec_ilshift (n u nx : Z) (v : operand) : res (Z * Z * Z) :=
  bind (spec_store n v) (fun nx' => Ok (n, u, nx')).
Definition spec_flip (n u nx : Z) : res (Z * Z * Z) := Ok (n, nx, nx).

Definition spec_sint (n u : Z) : Z := if 2 ^ (n - 1) <=? u then u - 2 ^ n else u.

(* ---- C05: indexing ---- *)
Definition step_trivial (st : option Z) : bool :=
  match st with None => true | Some k => k =? 0 end.

(* bounds: None means "from 0" / "to n"; any integer is taken literally *)
Definition bound (x : option Z) (d : Z) : Z := match x with None => d | Some k => k end.
Definition valid_range (n lo hi : Z) : bool := (0 <=? lo) && (lo <? hi) && (hi <=? n).

Definition spec_getitem (n u : Z) (i : pyidx) : res (Z * Z) :=
  match i with
  | ISlice s e st =>
      if negb (step_trivial st) then Err EIndex else
      let lo := bound s 0 in let hi := bound e n in
      if valid_range n lo hi then Ok (hi - lo, (u / 2 ^ lo) mod 2 ^ (hi - lo)) else Err EIndex
  | IInt k => if (0 <=? k) && (k <? n) then Ok (1, (u / 2 ^ k) mod 2) else Err EIndex
  end.

(* replace bits [lo,hi) of u by the (hi-lo)-bit value w *)
Definition splice (u lo hi w : Z) : Z :=
  Z.lor (Z.land u (Z.lnot (Z.shiftl (Z.ones (hi - lo)) lo))) (Z.shiftl w lo).
(* its meaning is the theorem BitsLemmas.splice_testbit: bit i of the result is bit (i-lo) of w
   inside [lo,hi) and bit i of u everywhere else *)

Definition spec_setitem (n u nx : Z) (i : pyidx) (v : operand) : res (Z * Z * Z) :=
  match i with
  | ISlice s e st =>
      if negb (step_trivial st) then Err EIndex else
      let lo := bound s 0 in let hi := bound e n in
      if valid_range n lo hi then
        bind (spec_store (hi - lo) v) (fun w => Ok (n, splice u lo hi w, nx))
      else Err EIndex
  | IInt k =>
      if (0 <=? k) && (k <? n) then
        match v with
        | OBits m b => if 1 <? m then Err EValue else Ok (n, splice u k (k + 1) (b mod 2), nx)
        | OInt j => if 1 <? Z.abs j then Err EValue else Ok (n, splice u k (k + 1) (j mod 2), nx)
        | OOther => Err EType
        end
      else Err EIndex
  end.
