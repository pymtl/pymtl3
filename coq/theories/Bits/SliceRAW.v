(* Bits/SliceRAW.v — read after write for Bits slices, over the specification functions of Bits/BitsSpec.v
   (spec_setitem / spec_getitem, which Gen/BitsGen.v's generated __setitem__/__getitem__ are proved equal to). *)
From PV Require Import Base.Prelude Bits.BitsSpec Bits.BitsLemmas Bits.SpecFacts.
Open Scope Z_scope.

(* reading any valid slice [lo2,hi2) after a valid slice write [lo,hi) := b:
   exactly the written bits inside the window, the old bits outside it *)
Theorem slice_read_after_write n u nx lo hi b r lo2 hi2 :
  wfn n -> inrange n u -> inrange (hi - lo) b -> 0 <= lo < hi -> hi <= n ->
  spec_setitem n u nx (ISlice (Some lo) (Some hi) None) (OBits (hi - lo) b) = Ok r ->
  0 <= lo2 < hi2 -> hi2 <= n ->
  exists u', r = (n, u', nx) /\ inrange n u' /\
  exists v, spec_getitem n u' (ISlice (Some lo2) (Some hi2) None) = Ok (hi2 - lo2, v) /\
    inrange (hi2 - lo2) v /\
    (forall i, 0 <= i < hi2 - lo2 ->
       Z.testbit v i = if (lo <=? lo2 + i) && (lo2 + i <? hi) then Z.testbit b (lo2 + i - lo)
                       else Z.testbit u (lo2 + i)) /\
    (lo2 = lo -> hi2 = hi -> v = b) /\
    (hi2 <= lo \/ hi <= lo2 -> spec_getitem n u (ISlice (Some lo2) (Some hi2) None) = Ok (hi2 - lo2, v)).
Proof.
  intros Hn Hu Hb Hr Hh E Hr2 Hh2.
  assert (Hv : owf (OBits (hi - lo) b)) by (split; [unfold wfn in *; lia|exact Hb]).
  destruct (setitem_slice_frame n u nx lo hi _ r Hn Hu Hv Hr Hh E) as (w & u' & -> & Hw & Hu' & Hbits).
  cbn [spec_store] in Hw. rewrite Z.eqb_refl in Hw. injection Hw as <-.
  exists u'. split; [reflexivity|]. split; [exact Hu'|].
  destruct (getitem_slice_valid n u' lo2 hi2 Hr2 Hh2) as (G & Gr & Gb).
  eexists. split; [exact G|]. split; [exact Gr|].
  assert (Hall : forall i, 0 <= i < hi2 - lo2 ->
     Z.testbit ((u' / 2 ^ lo2) mod 2 ^ (hi2 - lo2)) i =
     if (lo <=? lo2 + i) && (lo2 + i <? hi) then Z.testbit b (lo2 + i - lo) else Z.testbit u (lo2 + i)).
  { intros i Hi. rewrite Gb by exact Hi. apply Hbits. lia. }
  split; [exact Hall|]. split.
  (* both remaining claims: two in-range values with the same bits are equal *)
  - intros -> ->. apply (inrange_bits_eq (hi - lo)); [lia|exact Gr|exact Hb|].
    intros i Hi. rewrite Hall by exact Hi.
    replace ((lo <=? lo + i) && (lo + i <? hi)) with true by (clear - Hi; lia). f_equal. lia.
  - intros Hdis. destruct (getitem_slice_valid n u lo2 hi2 Hr2 Hh2) as (G0 & Gr0 & Gb0).
    rewrite G0. do 2 f_equal. apply (inrange_bits_eq (hi2 - lo2)); [lia|exact Gr0|exact Gr|].
    intros i Hi. rewrite Hall, Gb0 by exact Hi.
    replace ((lo <=? lo2 + i) && (lo2 + i <? hi)) with false by (clear - Hdis Hi; lia). reflexivity.
Qed.
