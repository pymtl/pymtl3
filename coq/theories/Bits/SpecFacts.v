(* Bits/SpecFacts.v — what the specification itself guarantees: results stay in range, widths are the
   documented ones, nothing is silently truncated, slices address exactly the named bits. No axioms. *)
From PV Require Import Base.Prelude Bits.BitsSpec Bits.BitsLemmas.
Open Scope Z_scope.

Lemma arith_range op n a b r : wfn n -> inrange n a -> inrange n b -> arith op n a b = Ok r -> inrange n r.
Proof.
  unfold wfn, inrange. intros Hn Ha Hb.
  assert (Hp : 0 < 2 ^ n) by (apply pow2_gt0; lia).
  destruct op; cbn [arith]; try (intros [= <-]; apply Z.mod_pos_bound; lia).
  (* And Or Xor FloorDiv Mod LShift RShift *)
  - intros [= <-]. apply land_range; lia.
  - intros [= <-]. apply lor_range; lia.
  - intros [= <-]. apply lxor_range; lia.
  - destruct (b =? 0) eqn:E; [discriminate|]. intros [= <-]. apply div_range; lia.
  - destruct (b =? 0) eqn:E; [discriminate|]. intros [= <-]. apply mod_range; lia.
  - intros [= <-]. destruct (n <=? b); [lia|]. apply Z.mod_pos_bound; lia.
  - intros [= <-]. destruct (n <=? b); [lia|]. apply div_range; [lia|]. apply Z.pow_nonneg; lia.
Qed.

(* the guards that keep LShift/RShift computable do not change the mathematical value *)
Theorem arith_lshift_math n a b : wfn n -> 0 <= b -> arith LShift n a b = Ok ((a * 2 ^ b) mod 2 ^ n).
Proof.
  unfold wfn. intros Hn Hb. cbn. f_equal. destruct (n <=? b) eqn:E; [|reflexivity].
  symmetry. apply shl_overflow; lia.
Qed.
Theorem arith_rshift_math n a b : wfn n -> inrange n a -> 0 <= b -> arith RShift n a b = Ok (a / 2 ^ b).
Proof.
  unfold wfn, inrange. intros Hn Ha Hb. cbn. f_equal. destruct (n <=? b) eqn:E; [|reflexivity].
  symmetry. apply shr_overflow with n; lia.
Qed.

(* the boolean guards of the specification, as the propositions they decide *)
Lemma int_operand_okP n k : reflect (inrange n k) (int_operand_ok n k).
Proof. unfold int_operand_ok, vhi, inrange. apply iff_reflect. lia. Qed.

Lemma fitsP n k : reflect (- 2 ^ (n - 1) <= k <= 2 ^ n - 1) (fits n k).
Proof. unfold fits, vlo, vhi. apply iff_reflect. lia. Qed.

Lemma valid_rangeP n lo hi : reflect (0 <= lo < hi /\ hi <= n) (valid_range n lo hi).
Proof. unfold valid_range. apply iff_reflect. lia. Qed.

Lemma bind_arith_range op n x y m r : wfn n -> inrange n x -> inrange n y ->
  bind (arith op n x y) (fun r => Ok (n, r)) = Ok (m, r) -> m = n /\ inrange n r.
Proof.
  intros Hn Hx Hy. destruct (arith op n x y) as [z|] eqn:A; cbn [bind]; [|discriminate].
  intros [= <- <-]. split; [reflexivity|]. exact (arith_range op n x y z Hn Hx Hy A).
Qed.

Theorem spec_binop_range op n a o m r :
  wfn n -> inrange n a -> owf o -> spec_binop op n a o = Ok (m, r) -> m = n /\ inrange n r.
Proof.
  intros Hn Ha Ho. destruct o as [w b|k|]; cbn [spec_binop owf] in *; [| |discriminate].
  - destruct (Z.eqb_spec w n) as [->|]; [|discriminate]. apply bind_arith_range; tauto.
  - destruct (int_operand_okP n k); [|discriminate]. apply bind_arith_range; assumption.
Qed.

Theorem spec_rbinop_range op n a o m r :
  wfn n -> inrange n a -> spec_rbinop op n a o = Ok (m, r) -> m = n /\ inrange n r.
Proof.
  intros Hn Ha. destruct o as [w k|k|]; cbn [spec_rbinop]; [| |discriminate].
  all: destruct (int_operand_okP n k); [|discriminate]; apply bind_arith_range; assumption.
Qed.

(* operands of another width, or integers that do not fit, are errors — never truncated *)
Theorem spec_binop_width_mismatch op n a m b : m <> n -> spec_binop op n a (OBits m b) = Err EValue.
Proof. intros; cbn. destruct (Z.eqb_spec m n); [contradiction|reflexivity]. Qed.
Theorem spec_binop_int_unfit op n a k : k < 0 \/ 2 ^ n - 1 < k -> spec_binop op n a (OInt k) = Err EValue.
Proof. intros; cbn. destruct (int_operand_okP n k) as [R|]; [unfold inrange in R; lia|reflexivity]. Qed.
Theorem spec_cmp_width_mismatch op n a m b : m <> n -> spec_cmp op n a (OBits m b) = Err EValue.
Proof. intros; cbn. destruct (Z.eqb_spec m n); [contradiction|reflexivity]. Qed.
Theorem spec_cmp_int_unfit op n a k : k < 0 \/ 2 ^ n - 1 < k -> spec_cmp op n a (OInt k) = Err EValue.
Proof. intros; cbn. destruct (int_operand_okP n k) as [R|]; [unfold inrange in R; lia|reflexivity]. Qed.

Theorem spec_cmp_bool op n a o m r : spec_cmp op n a o = Ok (m, r) -> m = 1 /\ (r = 0 \/ r = 1).
Proof.
  destruct o as [w b|k|]; cbn [spec_cmp].
  - destruct (w =? n); [|discriminate]. intros [= <- <-]. destruct (cmp op a b); cbn; lia.
  - destruct (int_operand_ok n k); [|discriminate]. intros [= <- <-]. destruct (cmp op a k); cbn; lia.
  - destruct op; try discriminate; intros [= <- <-]; lia.
Qed.

Theorem spec_invert_range n a : wfn n -> inrange n a -> inrange n (2 ^ n - 1 - a).
Proof. unfold wfn, inrange; lia. Qed.

(* construction / @= / <<= accept exactly  -2^(n-1) .. 2^n-1  and store v mod 2^n *)
Lemma spec_store_int n k : - 2 ^ (n - 1) <= k <= 2 ^ n - 1 -> spec_store n (OInt k) = Ok (k mod 2 ^ n).
Proof. intros H; cbn. destruct (fitsP n k); [reflexivity|contradiction]. Qed.

Theorem spec_store_int_iff n k :
  (exists u, spec_store n (OInt k) = Ok u) <-> - 2 ^ (n - 1) <= k <= 2 ^ n - 1.
Proof.
  cbn. destruct (fitsP n k) as [F|F].
  - split; [intros _; exact F|eauto].
  - split; [intros [u Hu]; discriminate|contradiction].
Qed.

Theorem spec_store_range n v u : wfn n -> owf v -> spec_store n v = Ok u -> inrange n u.
Proof.
  intros Hn Hv. destruct v as [m b|k|]; cbn [spec_store owf] in *; [| |discriminate].
  - destruct (Z.eqb_spec m n) as [->|]; [|discriminate]. intros [= <-]. tauto.
  - destruct (fits n k); [|discriminate]. intros [= <-]. apply inrange_mod, wfn_nonneg, Hn.
Qed.

Theorem spec_store_int_value n k u : spec_store n (OInt k) = Ok u -> u = k mod 2 ^ n.
Proof. cbn. destruct (fits n k); [|discriminate]. intros [= <-]; reflexivity. Qed.

Theorem spec_store_width_mismatch n m b : m <> n -> spec_store n (OBits m b) = Err EValue.
Proof. intros; cbn. destruct (Z.eqb_spec m n); [contradiction|reflexivity]. Qed.

Lemma spec_init_wf n v t : wfn n ->
  spec_init n v t = match v, t with
                    | OInt k, true => Ok (n, k mod 2 ^ n)
                    | _, _ => bind (spec_store n v) (fun u => Ok (n, u))
                    end.
Proof.
  unfold wfn, spec_init. intros Hn. destruct ((n <? 1) || (1024 <=? n)) eqn:E; [lia|].
  destruct v, t; reflexivity.
Qed.

Lemma spec_init_not_wf n v t : ~ wfn n -> spec_init n v t = Err EValue.
Proof. unfold wfn, spec_init. intros Hn. destruct ((n <? 1) || (1024 <=? n)) eqn:E; [reflexivity|lia]. Qed.

Lemma spec_init_ok_wf n v t r : spec_init n v t = Ok r -> wfn n.
Proof. unfold wfn, spec_init. destruct ((n <? 1) || (1024 <=? n)) eqn:E; [discriminate|lia]. Qed.

Theorem spec_init_range n v t m u : owf v -> spec_init n v t = Ok (m, u) -> m = n /\ wfn n /\ inrange n u.
Proof.
  intros Hv H. pose proof (spec_init_ok_wf n v t _ H) as Hn. rewrite spec_init_wf in H by exact Hn.
  assert (G : bind (spec_store n v) (fun u => Ok (n, u)) = Ok (m, u) -> m = n /\ wfn n /\ inrange n u).
  { destruct (spec_store n v) as [x|] eqn:S; cbn [bind]; [|discriminate].
    intros [= <- <-]. split; [reflexivity|]. split; [exact Hn|]. exact (spec_store_range n v x Hn Hv S). }
  destruct v as [w b|k|]; [exact (G H)| |exact (G H)]. destruct t; [|exact (G H)].
  injection H as <- <-. split; [reflexivity|]. split; [exact Hn|]. apply inrange_mod, wfn_nonneg, Hn.
Qed.

Theorem spec_sint_range n u : wfn n -> inrange n u ->
  - 2 ^ (n - 1) <= spec_sint n u < 2 ^ (n - 1) /\ (spec_sint n u) mod 2 ^ n = u.
Proof.
  unfold wfn, inrange, spec_sint. intros Hn Hu. pose proof (pow2_double n ltac:(lia)) as Hp.
  destruct (2 ^ (n - 1) <=? u) eqn:E.
  - split; [lia|]. replace (u - 2 ^ n) with (u + (-1) * 2 ^ n) by lia.
    rewrite Z.mod_add by lia. apply Z.mod_small; lia.
  - split; [lia|]. apply Z.mod_small; lia.
Qed.

Theorem getitem_slice_valid n u lo hi : 0 <= lo < hi -> hi <= n ->
  spec_getitem n u (ISlice (Some lo) (Some hi) None) = Ok (hi - lo, (u / 2 ^ lo) mod 2 ^ (hi - lo))
  /\ inrange (hi - lo) ((u / 2 ^ lo) mod 2 ^ (hi - lo))
  /\ forall i, 0 <= i < hi - lo ->
       Z.testbit ((u / 2 ^ lo) mod 2 ^ (hi - lo)) i = Z.testbit u (lo + i).
Proof.
  intros Hl Hh. split; [|split].
  - cbn. destruct (valid_rangeP n lo hi); [reflexivity|lia].
  - apply inrange_mod. lia.
  - intros i Hi. rewrite slice_testbit by lia. destruct (i <? hi - lo) eqn:E; [reflexivity|lia].
Qed.

(* every (start, stop) in Z^2 outside 0 <= lo < hi <= n, and every non-trivial step, is an IndexError:
   the guard shared by spec_getitem and spec_setitem *)
Lemma slice_guard_invalid {A} n lo hi st (x : res A) :
  ~ (0 <= lo < hi /\ hi <= n) \/ step_trivial st = false ->
  (if negb (step_trivial st) then Err EIndex else if valid_range n lo hi then x else Err EIndex) = Err EIndex.
Proof.
  intros H. destruct (step_trivial st); cbn [negb]; [|reflexivity].
  destruct (valid_rangeP n lo hi); [|reflexivity]. destruct H as [H|H]; [contradiction|discriminate].
Qed.

Theorem getitem_slice_invalid n u s e st :
  let lo := bound s 0 in let hi := bound e n in
  ~ (0 <= lo < hi /\ hi <= n) \/ step_trivial st = false ->
  spec_getitem n u (ISlice s e st) = Err EIndex.
Proof. exact (slice_guard_invalid n (bound s 0) (bound e n) st _). Qed.

Theorem getitem_bit n u k : wfn n -> inrange n u ->
  (0 <= k < n -> spec_getitem n u (IInt k) = Ok (1, b2z (Z.testbit u k))) /\
  (~ 0 <= k < n -> spec_getitem n u (IInt k) = Err EIndex).
Proof.
  intros Hn Hu. cbn [spec_getitem]. split; intros Hk.
  - destruct ((0 <=? k) && (k <? n)) eqn:E; [|lia]. do 2 f_equal. symmetry. apply Z.testbit_spec'. lia.
  - destruct ((0 <=? k) && (k <? n)) eqn:E; [lia|reflexivity].
Qed.

(* writing [lo,hi) := w changes exactly the named bits (frame) and keeps the value in range:
   BitsLemmas.splice_range and splice_testbit in one statement, over inrange *)
Lemma splice_frame n u lo hi w : 0 <= lo < hi -> hi <= n -> inrange n u -> inrange (hi - lo) w ->
  inrange n (splice u lo hi w) /\
  forall i, 0 <= i ->
    Z.testbit (splice u lo hi w) i = if (lo <=? i) && (i <? hi) then Z.testbit w (i - lo) else Z.testbit u i.
Proof.
  unfold inrange. intros Hl Hh Hu Hw. split; [apply splice_range; lia|].
  intros i Hi. apply splice_testbit; lia.
Qed.

Theorem setitem_slice_frame n u nx lo hi v r :
  wfn n -> inrange n u -> owf v -> 0 <= lo < hi -> hi <= n ->
  spec_setitem n u nx (ISlice (Some lo) (Some hi) None) v = Ok r ->
  exists w u', r = (n, u', nx) /\ spec_store (hi - lo) v = Ok w /\ inrange n u' /\
    forall i, 0 <= i ->
      Z.testbit u' i = if (lo <=? i) && (i <? hi) then Z.testbit w (i - lo) else Z.testbit u i.
Proof.
  intros Hn Hu Hv Hl Hh. cbn. destruct (valid_rangeP n lo hi); [|lia].
  destruct (spec_store (hi - lo) v) as [w|] eqn:S; cbn [bind]; [|discriminate].
  intros [= <-]. exists w, (splice u lo hi w).
  assert (Hw : inrange (hi - lo) w) by (apply (spec_store_range _ v); [unfold wfn in *; lia|exact Hv|exact S]).
  split; [reflexivity|]. split; [reflexivity|]. apply splice_frame; assumption.
Qed.

Theorem setitem_slice_invalid n u nx s e st v :
  let lo := bound s 0 in let hi := bound e n in
  ~ (0 <= lo < hi /\ hi <= n) \/ step_trivial st = false ->
  spec_setitem n u nx (ISlice s e st) v = Err EIndex.
Proof. exact (slice_guard_invalid n (bound s 0) (bound e n) st _). Qed.

Theorem setitem_slice_width_mismatch n u nx lo hi m b :
  0 <= lo < hi -> hi <= n -> m <> hi - lo ->
  spec_setitem n u nx (ISlice (Some lo) (Some hi) None) (OBits m b) = Err EValue.
Proof.
  intros Hl Hh Hm. cbn. destruct (valid_rangeP n lo hi); [|lia].
  destruct (Z.eqb_spec m (hi - lo)); [contradiction|reflexivity].
Qed.

(* a one-bit splice, i.e. the slice write [k,k+1), changes exactly bit k *)
Lemma splice_bit_frame n u k w : inrange n u -> 0 <= k < n -> 0 <= w < 2 ->
  inrange n (splice u k (k + 1) w) /\
  forall i, 0 <= i -> Z.testbit (splice u k (k + 1) w) i = if i =? k then Z.odd w else Z.testbit u i.
Proof.
  intros Hu Hk Hw.
  destruct (splice_frame n u k (k + 1) w) as [R B]; [lia|lia|exact Hu|unfold inrange; replace (k + 1 - k) with 1 by lia; lia|].
  split; [exact R|]. intros i Hi. rewrite B by exact Hi. destruct (Z.eqb_spec i k) as [->|Hne].
  - destruct ((k <=? k) && (k <? k + 1)) eqn:E; [|lia]. rewrite Z.sub_diag. apply Z.bit0_odd.
  - destruct ((k <=? i) && (i <? k + 1)) eqn:E; [lia|reflexivity].
Qed.

Theorem setitem_bit_frame n u nx k v r :
  inrange n u -> 0 <= k < n ->
  spec_setitem n u nx (IInt k) v = Ok r ->
  exists w u', r = (n, u', nx) /\ (w = 0 \/ w = 1) /\ inrange n u' /\
    forall i, 0 <= i -> Z.testbit u' i = if i =? k then Z.odd w else Z.testbit u i.
Proof.
  intros Hu Hk. cbn [spec_setitem]. destruct ((0 <=? k) && (k <? n)) eqn:E; [|lia].
  (* both operand kinds write splice u k (k+1) w with w = b mod 2, resp. j mod 2 *)
  assert (G : forall w, 0 <= w < 2 -> exists w0 u', (n, splice u k (k + 1) w, nx) = (n, u', nx) /\ (w0 = 0 \/ w0 = 1) /\
             inrange n u' /\ forall i, 0 <= i -> Z.testbit u' i = if i =? k then Z.odd w0 else Z.testbit u i).
  { intros w Hw. exists w, (splice u k (k + 1) w). split; [reflexivity|]. split; [lia|].
    apply splice_bit_frame; assumption. }
  destruct v as [m b|j|]; [| |discriminate].
  - destruct (1 <? m); [discriminate|]. intros [= <-]. apply G, mod2_range.
  - destruct (1 <? Z.abs j); [discriminate|]. intros [= <-]. apply G, mod2_range.
Qed.
