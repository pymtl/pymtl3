(* Bits/Helpers.v — executable model of pymtl3/datatypes/helpers.py (concat, trunc, zext, sext,
   reduce_and/or/xor, clog2), written statement by statement after the code, on top of the Bits
   specification (spec_init is proved equal to the generated Bits.__init__).  Tied to the code by
   the T-diff correspondence in harness/c05.py.  Proofs in HelpersFacts.v and HelpersProofs.v. *)
From PV Require Import Base.Prelude Bits.BitsSpec.
Open Scope Z_scope.

(* concat( *args ): value = nbits = 0; for x in args: nbits += x.nbits; value = (value << x.nbits) | x.uint() ; Bits(nbits, value) *)
Definition concat_step (acc : Z * Z) (x : Z * Z) : Z * Z :=
  (fst acc + fst x, Z.lor (Z.shiftl (snd acc) (fst x)) (snd x)).
Definition concat_fold (xs : list (Z * Z)) : Z * Z := fold_left concat_step xs (0, 0).
Definition h_concat (xs : list (Z * Z)) : res (Z * Z) :=
  let '(nb, v) := concat_fold xs in spec_init nb (OInt v) false.

(* new_width is an int or a BitsN type (is_type tells which: the type form has no assert) *)
Definition h_trunc (n u : Z) (w : Z) (is_type : bool) : res (Z * Z) :=
  if negb is_type && negb (w <=? n) then Err EAssert else spec_init w (OInt u) true.
Definition h_zext (n u : Z) (w : Z) (is_type : bool) : res (Z * Z) :=
  if negb is_type && negb (n <=? w) then Err EAssert else spec_init w (OInt u) false.
Definition h_sext (n u : Z) (w : Z) (is_type : bool) : res (Z * Z) :=
  if negb is_type && negb (n <=? w) then Err EAssert else spec_init w (OInt (spec_sint n u)) false.

Definition h_reduce_and (n u : Z) : Z * Z := (1, b2z (u =? Z.shiftl 1 n - 1)).
Definition h_reduce_or  (n u : Z) : Z * Z := (1, b2z (negb (u =? 0))).

(* while value != 0: pop_count += value & 1; value >>= 1      (fuel = number of bits) *)
Fixpoint popcount_loop (fuel : nat) (v pc : Z) : Z :=
  match fuel with
  | O => pc
  | S f => if v =? 0 then pc else popcount_loop f (Z.shiftr v 1) (pc + Z.land v 1)
  end.
Definition h_reduce_xor (n u : Z) : Z * Z := (1, Z.land (popcount_loop (Z.to_nat n) u 0) 1).

(* int.bit_length *)
Definition bit_length (k : Z) : Z := if k =? 0 then 0 else Z.log2 (Z.abs k) + 1.
(* clog2(N): assert N > 0; (N-1).bit_length() *)
Definition h_clog2 (N : Z) : res Z := if 0 <? N then Ok (bit_length (N - 1)) else Err EAssert.

(* ---- bit-level specifications ---- *)
Fixpoint concat_spec (xs : list (Z * Z)) : Z * Z :=      (* first argument most significant *)
  match xs with
  | [] => (0, 0)
  | (n, u) :: rest => let '(n', v') := concat_spec rest in (n + n', u * 2 ^ n' + v')
  end.

Fixpoint xor_bits (k : nat) (u : Z) : bool :=            (* parity of bits 0..k-1 *)
  match k with O => false | S j => xorb (Z.testbit u (Z.of_nat j)) (xor_bits j u) end.
