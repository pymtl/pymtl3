(* Bits/HelpersFacts.v — helpers.py model = bit-level definitions, for every width and value.
   Free of the generated Gen/*.v: the RTL and SV layers build on this file. *)
From PV Require Import Base.Prelude Bits.BitsSpec Bits.BitsLemmas Bits.SpecFacts Bits.Helpers.
Open Scope Z_scope.

Lemma concat_spec_range xs : Forall (fun x => 0 < fst x /\ 0 <= snd x < 2 ^ fst x) xs ->
  0 <= fst (concat_spec xs) /\ 0 <= snd (concat_spec xs) < 2 ^ fst (concat_spec xs).
Proof.
  induction 1 as [|[n u] rest [Hn Hu] _ IH]; cbn [concat_spec]; [cbn; lia|].
  destruct (concat_spec rest) as [n' v']. cbn [fst snd] in *.
  destruct IH as [Hn' Hv']. split; [lia|].
  rewrite Z.pow_add_r by lia. assert (0 < 2 ^ n') by (apply pow2_gt0; lia). nia.
Qed.

Lemma concat_fold_acc xs : Forall (fun x => 0 < fst x /\ 0 <= snd x < 2 ^ fst x) xs -> forall nb v,
  fold_left concat_step xs (nb, v) =
    (nb + fst (concat_spec xs), v * 2 ^ fst (concat_spec xs) + snd (concat_spec xs)).
Proof.
  induction 1 as [|[n u] rest [Hn Hu] Hrest IH]; intros nb v; cbn [fold_left concat_spec].
  - cbn. f_equal; lia.
  - unfold concat_step at 2. cbn [fst snd] in *. rewrite IH.
    pose proof (concat_spec_range rest Hrest) as [Hn' Hv'].
    destruct (concat_spec rest) as [n' v']. cbn [fst snd] in *.
    rewrite lor_shiftl_add by lia. f_equal; [lia|].
    rewrite Z.pow_add_r by lia. lia.
Qed.

(* concat builds its result with the Bits constructor, on the width and value of the bit-level definition *)
Lemma h_concat_init xs : Forall (fun x => 0 < fst x /\ 0 <= snd x < 2 ^ fst x) xs ->
  h_concat xs = spec_init (fst (concat_spec xs)) (OInt (snd (concat_spec xs))) false.
Proof.
  intros Hxs. unfold h_concat, concat_fold. rewrite concat_fold_acc by exact Hxs.
  rewrite Z.add_0_l, Z.mul_0_l, Z.add_0_l. reflexivity.
Qed.

Theorem concat_ok xs : Forall (fun x => 0 < fst x /\ 0 <= snd x < 2 ^ fst x) xs -> 0 < fst (concat_spec xs) < 1024 ->
  h_concat xs = Ok (concat_spec xs).
Proof.
  intros Hxs Hw. rewrite h_concat_init by exact Hxs. pose proof (concat_spec_range xs Hxs) as [Hn Hv].
  destruct (concat_spec xs) as [n v]. cbn [fst snd] in *. pose proof (Z.pow_nonneg 2 (n - 1)).
  rewrite spec_init_wf, spec_store_int by (unfold wfn; lia).
  cbn [bind]. rewrite Z.mod_small by lia. reflexivity.
Qed.

Theorem concat_width_sum xs : fst (concat_spec xs) = fold_right Z.add 0 (map fst xs).
Proof. induction xs as [|[n u] rest IH]; cbn; [reflexivity|]. destruct (concat_spec rest); cbn in *; lia. Qed.

Theorem concat_too_wide xs : Forall (fun x => 0 < fst x /\ 0 <= snd x < 2 ^ fst x) xs -> 1024 <= fst (concat_spec xs) -> h_concat xs = Err EValue.
Proof. intros Hxs Hw. rewrite h_concat_init by exact Hxs. apply spec_init_not_wf. unfold wfn. lia. Qed.

Theorem trunc_ok n u w : 0 < w <= n -> n < 1024 -> h_trunc n u w false = Ok (w, u mod 2 ^ w).
Proof.
  intros Hw Hn. unfold h_trunc. rewrite (proj2 (Z.leb_le w n)) by lia. cbn [negb andb].
  rewrite spec_init_wf by (unfold wfn; lia). reflexivity.
Qed.
Theorem trunc_guard n u w : n < w -> h_trunc n u w false = Err EAssert.
Proof. intros; unfold h_trunc. rewrite (proj2 (Z.leb_gt w n)) by lia. reflexivity. Qed.

Theorem zext_ok n u w : wfn n -> inrange n u -> n <= w < 1024 -> h_zext n u w false = Ok (w, u).
Proof.
  unfold wfn, inrange. intros Hn Hu Hw. unfold h_zext. rewrite (proj2 (Z.leb_le n w)) by lia. cbn [negb andb].
  pose proof (pow2_le_mono n w). pose proof (Z.pow_nonneg 2 (w - 1)).
  rewrite spec_init_wf, spec_store_int by (unfold wfn; lia).
  cbn [bind]. rewrite Z.mod_small by lia. reflexivity.
Qed.
Theorem zext_guard n u w : w < n -> h_zext n u w false = Err EAssert.
Proof. intros; unfold h_zext. rewrite (proj2 (Z.leb_gt n w)) by lia. reflexivity. Qed.

Theorem sext_ok n u w : wfn n -> inrange n u -> n <= w < 1024 ->
  h_sext n u w false = Ok (w, (spec_sint n u) mod 2 ^ w) /\
  forall i, 0 <= i < w -> Z.testbit ((spec_sint n u) mod 2 ^ w) i = Z.testbit u (Z.min i (n - 1)).
Proof.
  intros Hn Hu Hw. pose proof (spec_sint_range n u Hn Hu) as [Hs Hm].
  unfold wfn, inrange in *. split.
  - unfold h_sext. rewrite (proj2 (Z.leb_le n w)) by lia. cbn [negb andb].
    pose proof (pow2_le_mono (n - 1) (w - 1)). pose proof (pow2_le_mono (w - 1) w).
    rewrite spec_init_wf, spec_store_int by (unfold wfn; lia). reflexivity.
  - intros i Hi. rewrite Z.mod_pow2_bits_low by lia.
    destruct (Z.ltb_spec i n).
    + rewrite Z.min_l by lia. rewrite <- Hm at 2. rewrite Z.mod_pow2_bits_low by lia. reflexivity.
    + (* at and above the sign bit: if it is set, spec_sint = u - 2^n lies in [-2^(n-1), 0), so all these bits are 1
         (testbit_neg_high), and so is bit n-1 of u (msb_div); if not, both sides are 0 (testbit_high) *)
      rewrite Z.min_r by lia. unfold spec_sint in *. pose proof (pow2_double n) as Hp.
      destruct (2 ^ (n - 1) <=? u) eqn:E.
      * rewrite (testbit_neg_high (u - 2 ^ n) (n - 1) i) by lia.
        symmetry. apply Z.testbit_true; [lia|]. rewrite msb_div by lia. reflexivity.
      * rewrite !(testbit_high u (n - 1)) by lia. reflexivity.
Qed.
Theorem sext_guard n u w : w < n -> h_sext n u w false = Err EAssert.
Proof. intros; unfold h_sext. rewrite (proj2 (Z.leb_gt n w)) by lia. reflexivity. Qed.

Theorem reduce_and_ok n u : wfn n -> inrange n u ->
  (snd (h_reduce_and n u) = 1 <-> forall i, 0 <= i < n -> Z.testbit u i = true) /\
  (snd (h_reduce_and n u) = 0 \/ snd (h_reduce_and n u) = 1) /\ fst (h_reduce_and n u) = 1.
Proof.
  unfold wfn, inrange. intros Hn Hu. unfold h_reduce_and. cbn [fst snd]. rewrite shiftl_mul by lia. rewrite Z.mul_1_l.
  split; [|split; [destruct (u =? 2 ^ n - 1); cbn; lia|reflexivity]].
  destruct (Z.eqb_spec u (2 ^ n - 1)) as [->|Hne]; cbn [b2z]; split.
  - intros _ i Hi. rewrite ones_eq. apply Z.ones_spec_low; lia.
  - reflexivity.
  - discriminate.
  - intros Hall. exfalso. apply Hne. pose proof (pow2_gt0 n).
    apply (inrange_bits_eq n); [lia|lia|lia|]. intros i Hi.
    rewrite ones_eq, Z.ones_spec_low by lia. apply Hall, Hi.
Qed.

Theorem reduce_or_ok n u : inrange n u ->
  (snd (h_reduce_or n u) = 1 <-> exists i, 0 <= i /\ Z.testbit u i = true) /\ fst (h_reduce_or n u) = 1.
Proof.
  intros Hu. unfold h_reduce_or. cbn [fst snd]. split; [|reflexivity].
  destruct (Z.eqb_spec u 0) as [->|Hne]; cbn [negb b2z]; split.
  - discriminate.
  - intros [i [Hi Hb]]. rewrite Z.bits_0 in Hb. discriminate.
  - intros _. exists (Z.log2 u). unfold inrange in Hu. split; [apply Z.log2_nonneg|]. apply Z.bit_log2. lia.
  - reflexivity.
Qed.

Lemma xor_bits_S k u : xor_bits (S k) u = xorb (Z.testbit u (Z.of_nat k)) (xor_bits k u).
Proof. reflexivity. Qed.

Lemma xor_bits_shift k u : 0 <= u -> xor_bits (S k) u = xorb (Z.odd u) (xor_bits k (Z.shiftr u 1)).
Proof.
  intros Hu. induction k as [|j IH].
  - cbn [xor_bits]. change (Z.of_nat 0) with 0. rewrite Z.bit0_odd. reflexivity.
  - rewrite (xor_bits_S (S j)), IH, (xor_bits_S j (Z.shiftr u 1)), Z.shiftr_spec by lia.
    replace (Z.of_nat j + 1) with (Z.of_nat (S j)) by lia.
    destruct (Z.testbit u (Z.of_nat (S j))), (Z.odd u), (xor_bits j (Z.shiftr u 1)); reflexivity.
Qed.

Lemma xor_bits_0 k : xor_bits k 0 = false.
Proof. induction k; cbn; [reflexivity|]. rewrite Z.bits_0, IHk. reflexivity. Qed.

Lemma popcount_parity k : forall u pc, 0 <= u < 2 ^ Z.of_nat k ->
  Z.odd (popcount_loop k u pc) = xorb (Z.odd pc) (xor_bits k u).
Proof.
  induction k as [|j IH]; intros u pc Hu.
  - cbn. destruct (Z.odd pc); reflexivity.
  - cbn [popcount_loop]. destruct (Z.eqb_spec u 0) as [->|Hne].
    + rewrite xor_bits_0. destruct (Z.odd pc); reflexivity.
    + rewrite IH.
      * rewrite xor_bits_shift by lia. rewrite Z.odd_add.
        rewrite land_1, Zmod_odd. destruct (Z.odd u), (Z.odd pc), (xor_bits j (Z.shiftr u 1)); reflexivity.
      * rewrite shiftr_div by lia. replace (Z.of_nat (S j)) with (Z.of_nat j + 1) in Hu by lia.
        rewrite Z.pow_add_r in Hu by lia. change (2 ^ 1) with 2 in *.
        split; [apply Z.div_pos; lia|]. apply Z.div_lt_upper_bound; lia.
Qed.

Theorem reduce_xor_ok n u : wfn n -> inrange n u -> h_reduce_xor n u = (1, b2z (xor_bits (Z.to_nat n) u)).
Proof.
  unfold wfn, inrange. intros Hn Hu. unfold h_reduce_xor. f_equal.
  rewrite land_1, Zmod_odd. rewrite popcount_parity by (rewrite Z2Nat.id by lia; lia).
  cbn [Z.odd xorb]. destruct (xor_bits (Z.to_nat n) u); reflexivity.
Qed.
