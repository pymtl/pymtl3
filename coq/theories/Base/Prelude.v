(* Base/Prelude.v — vocabulary shared by the Bits, RTL, SV, Lib and Trace models and by the case files the harness
   generates (results with an exception class, Python operand kinds, index helpers).  No axioms. *)
From Coq Require Export ZArith List Bool Lia ZifyBool.
Export ListNotations.
Open Scope Z_scope.

(* in every file that imports this one, lia also decides goals with / and mod (at the price of looking at every such term) *)
Ltac Zify.zify_post_hook ::= Z.to_euclidean_division_equations.

(* ---- results with a small error enum (exceptions are compared by class) ---- *)
Inductive err : Set :=
| EValue      (* ValueError : width mismatch / value does not fit *)
| EIndex      (* IndexError *)
| EZeroDiv    (* ZeroDivisionError *)
| EAssert     (* AssertionError *)
| EType       (* TypeError / AttributeError leaking out *)
| EOther.

Inductive res (A : Type) : Type :=
| Ok  (a : A)
| Err (e : err).
Arguments Ok {A} a.
Arguments Err {A} e.

Definition bind {A B} (r : res A) (f : A -> res B) : res B :=
  match r with Ok a => f a | Err e => Err e end.
Lemma bind_ok {A B} (r : res A) (f : A -> res B) b : bind r f = Ok b -> exists a, r = Ok a /\ f a = Ok b.
Proof. destruct r as [a|e]; cbn; [eauto|discriminate]. Qed.

Definition res_eqb {A} (eqb : A -> A -> bool) (x y : res A) : bool :=
  match x, y with
  | Ok a, Ok b => eqb a b
  | Err e, Err f =>
      match e, f with
      | EValue, EValue | EIndex, EIndex | EZeroDiv, EZeroDiv
      | EAssert, EAssert | EType, EType | EOther, EOther => true
      | _, _ => false
      end
  | _, _ => false
  end.

Definition b2z (b : bool) : Z := if b then 1 else 0.
Lemma bools_in (b : bool) : In b [false; true].
Proof. destruct b; cbn; auto. Qed.

(* ---- Python operand kinds seen by Bits methods ---- *)
Inductive operand : Set :=
| OBits (n u : Z)      (* a Bits / bitstruct value: has .nbits, ._uint, .to_bits() *)
| OInt  (k : Z)        (* anything int() accepts and that has no .nbits *)
| OOther.              (* anything else (int() raises) *)

Inductive pyidx : Set :=
| ISlice (start stop step : option Z)
| IInt   (k : Z).

(* Python `x or d` when x is None-or-int *)
Definition py_or_opt (x : option Z) (d : Z) : Z :=
  match x with None => d | Some k => if k =? 0 then d else k end.
(* Python `d if x is None else x` *)
Definition py_ifnone_opt (x : option Z) (d : Z) : Z :=
  match x with None => d | Some k => k end.
(* truthiness of None-or-int *)
Definition py_truthy_opt (x : option Z) : bool :=
  match x with None => false | Some k => negb (k =? 0) end.

(* used by the generated coq/cases/*.v (harness/common.py: Eval vm_compute in (bad_indices ok cases)), like res_eqb,
   pair_eqb and triple_eqb *)
Fixpoint bad_indices_from {A} (f : A -> bool) (i : nat) (l : list A) : list nat :=
  match l with
  | [] => []
  | x :: xs => if f x then bad_indices_from f (S i) xs else i :: bad_indices_from f (S i) xs
  end.
Definition bad_indices {A} (f : A -> bool) (l : list A) : list nat := bad_indices_from f 0%nat l.
Lemma bad_indices_from_nil {A} (f : A -> bool) l i :
  bad_indices_from f i l = [] <-> forallb f l = true.
Proof.
  revert i; induction l as [|x xs IH]; intros i; cbn; [tauto|].
  destruct (f x); cbn; [apply IH|]. split; discriminate.
Qed.

Definition pair_eqb (a b : Z * Z) : bool := (fst a =? fst b) && (snd a =? snd b).
Definition triple_eqb (a b : Z * Z * Z) : bool :=
  pair_eqb (fst a) (fst b) && (snd a =? snd b).
