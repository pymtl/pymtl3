(* Trace/VcdProofs.v — proofs about the model in Trace/Vcd.v (property C16).  No axioms.
   The round trip goes through the reader run forwards (`replay`): a dump pass is a run of value
   changes, summarised by `vstep`; `lasts_inv` links the writer's `last_values` to the reader's state from
   one pass to the next (emit_spec, cycles_spec); `dump_run` puts default dump, clock and cycles
   together for arbitrary nets, and `vcd_body_views` instantiates it with the nets of `vcd_body`. *)
From PV Require Import Base.Prelude Trace.Vcd.
From Coq Require Import Strings.Ascii Strings.String.
From Coq Require FinFun.
Open Scope Z_scope.

Lemma is_bit_bitc b : is_bit (bitc b) = Some (if b then 1 else 0).
Proof. destruct b; reflexivity. Qed.

Lemma append_assoc_sp (a : string) c rest :
  ((a ++ String c EmptyString) ++ rest)%string = (a ++ String c rest)%string.
Proof. induction a as [|x a IH]; cbn; [reflexivity|]. now rewrite IH. Qed.

Lemma mod_pow2_succ u k : 0 <= k ->
  u mod 2 ^ (k + 1) = (if Z.testbit u k then 1 else 0) * 2 ^ k + u mod 2 ^ k.
Proof.
  intros Hk. rewrite Z.pow_add_r by lia. change (2 ^ 1) with 2.
  rewrite Z.rem_mul_r by (try apply Z.pow_nonzero; lia).
  pose proof (Z.testbit_spec' u k Hk) as H. destruct (Z.testbit u k); cbn [Z.b2z] in H; rewrite <- H; ring.
Qed.

Lemma parse_bin_bits k u acc cnt rest :
  parse_bin (bits_msb k u ++ String " "%char rest)%string acc cnt
  = Some (cnt + Z.of_nat k, acc * 2 ^ Z.of_nat k + u mod 2 ^ Z.of_nat k, rest).
Proof.
  revert acc cnt; induction k as [|k IH]; intros acc cnt.
  - cbn [bits_msb append parse_bin]. change (is_bit " "%char) with (@None Z). cbn.
    rewrite Z.mod_1_r. do 2 f_equal. f_equal; ring.
  - cbn [bits_msb append parse_bin]. rewrite is_bit_bitc, IH.
    rewrite Nat2Z.inj_succ, <- Z.add_1_r, (mod_pow2_succ u (Z.of_nat k)) by apply Nat2Z.is_nonneg.
    rewrite (Z.pow_add_r 2 (Z.of_nat k) 1) by (apply Nat2Z.is_nonneg || apply Z.le_0_1).
    change (2 ^ 1) with 2.
    do 2 f_equal. f_equal; [ring|]. destruct (Z.testbit u (Z.of_nat k)); ring.
Qed.

Theorem vcd_str_roundtrip n u sym :
  0 < n -> 0 <= u < 2 ^ n -> nonempty sym = true ->
  parse_change (to_vcd_str n u ++ sym)%string = Some (n, u, sym).
Proof.
  intros Hn Hu Hs. unfold to_vcd_str. destruct (n =? 1) eqn:E.
  - assert (n = 1) by lia. subst n. change (2 ^ 1) with 2 in Hu.
    cbn [bits_msb append parse_change]. rewrite is_bit_bitc, Hs.
    assert (u = 0 \/ u = 1) as [-> | ->] by lia; reflexivity.
  - cbn [append parse_change]. change (is_bit "b"%char) with (@None Z). cbn [Ascii.eqb Bool.eqb].
    rewrite append_assoc_sp, parse_bin_bits, Z2Nat.id by lia.
    rewrite Z.mod_small by lia. cbn [Z.add Z.mul].
    replace (0 <? n) with true by lia. rewrite Hs. reflexivity.
Qed.

Lemma to_vcd_str_inj n u m v :
  0 < n -> 0 <= u < 2 ^ n -> 0 < m -> 0 <= v < 2 ^ m ->
  to_vcd_str n u = to_vcd_str m v -> n = m /\ u = v.
Proof.
  intros Hn Hu Hm Hv E.
  pose proof (vcd_str_roundtrip n u "!"%string Hn Hu eq_refl) as A.
  pose proof (vcd_str_roundtrip m v "!"%string Hm Hv eq_refl) as B.
  rewrite E in A. rewrite A in B. now inversion B.
Qed.

Lemma zero_fits w : 0 < w -> 0 <= 0 < 2 ^ w.
Proof. intros H. split; [lia|apply Z.pow_pos_nonneg; lia]. Qed.

Lemma to_vcd_str_one_bit u : 0 <= u < 2 ->
  to_vcd_str 1 u = String (if u =? 1 then "1"%char else "0"%char) EmptyString.
Proof. intros H. assert (u = 0 \/ u = 1) as [-> | ->] by lia; reflexivity. Qed.

Lemma bits_msb_length k u : String.length (bits_msb k u) = k.
Proof. induction k; cbn; auto. Qed.

Lemma to_vcd_str_multi_bit_form n u : n <> 1 ->
  to_vcd_str n u = String "b"%char (bits_msb (Z.to_nat n) u ++ String " "%char EmptyString)%string
  /\ String.length (bits_msb (Z.to_nat n) u) = Z.to_nat n.
Proof.
  intros H. split; [|apply bits_msb_length]. apply Z.eqb_neq in H. unfold to_vcd_str. now rewrite H.
Qed.

Lemma codechar_val r : 0 <= r < 94 -> Z.of_nat (nat_of_ascii (codechar r)) - 33 = r.
Proof.
  intros H. unfold codechar. rewrite nat_ascii_embedding by lia. lia.
Qed.

(* [symbol_of n] runs [sym_loop] on n / 94 with fuel n: each turn divides q by 94, so q never exceeds the fuel left *)
Lemma sym_loop_val fuel q code :
  0 <= q <= Z.of_nat fuel -> sym_val (sym_loop fuel q code) 0 = sym_val code q.
Proof.
  revert q code; induction fuel as [|f IH]; intros q code H; cbn [sym_loop].
  - now replace q with 0 by lia.
  - destruct (0 <? q) eqn:E; [|now replace q with 0 by lia].
    rewrite IH by lia. cbn [sym_val]. rewrite codechar_val by lia. f_equal. lia.
Qed.

Theorem symbol_val n : 0 <= n -> sym_val (symbol_of n) 0 = n.
Proof.
  intros H. unfold symbol_of. rewrite sym_loop_val by lia.
  cbn [sym_val]. rewrite codechar_val by lia. lia.
Qed.

Theorem symbol_inj n m : 0 <= n -> 0 <= m -> symbol_of n = symbol_of m -> n = m.
Proof.
  intros Hn Hm E. rewrite <- (symbol_val n Hn), <- (symbol_val m Hm). now rewrite E.
Qed.

Lemma sym_loop_nonempty fuel q code : nonempty code = true -> nonempty (sym_loop fuel q code) = true.
Proof.
  revert q code; induction fuel as [|f IH]; intros q code H; cbn [sym_loop]; [assumption|].
  destruct (0 <? q); [apply IH; reflexivity|assumption].
Qed.

Lemma symbol_nonempty n : nonempty (symbol_of n) = true.
Proof. apply sym_loop_nonempty. reflexivity. Qed.

Lemma all_syms_NoDup n : NoDup (all_syms n).
Proof.
  apply FinFun.Injective_map_NoDup; [|apply seq_NoDup].
  intros x y E. apply symbol_inj in E; lia.
Qed.

Lemma all_syms_length n : List.length (all_syms n) = n.
Proof. unfold all_syms. now rewrite map_length, seq_length. Qed.

Lemma all_syms_nonempty n s : In s (all_syms n) -> nonempty s = true.
Proof.
  unfold all_syms. intros H. apply in_map_iff in H as (i & <- & _). apply symbol_nonempty.
Qed.

Lemma lookup_upd s' s v st :
  lookup s' (upd s v st) = if String.eqb s' s then Some v else lookup s' st.
Proof.
  induction st as [|[k x] r IH]; cbn; [reflexivity|].
  destruct (String.eqb_spec s k) as [-> | N]; cbn.
  - destruct (String.eqb s' k); reflexivity.
  - rewrite IH. destruct (String.eqb_spec s' k) as [-> | _]; [|reflexivity].
    apply not_eq_sym, String.eqb_neq in N. now rewrite N.
Qed.

Lemma lookup_upd_same s v st : lookup s (upd s v st) = Some v.
Proof. now rewrite lookup_upd, String.eqb_refl. Qed.

Lemma lookup_upd_other s s' v st : s' <> s -> lookup s' (upd s v st) = lookup s' st.
Proof. intros N. apply String.eqb_neq in N. now rewrite lookup_upd, N. Qed.

Lemma row_upd syms s v st : ~ In s syms -> row syms (upd s v st) = row syms st.
Proof.
  intros H. apply map_ext_in. intros s' Hs'. apply lookup_upd_other. intros ->. exact (H Hs').
Qed.

Definition vstep (st : vstate) (t : tok) : vstate :=
  match t with TVal n u s => upd s (n, u) st | TTime _ => st end.

(* a token of a run of value changes that touches only the symbols `syms` *)
Definition changes_only (syms : list string) (t : tok) : Prop :=
  match t with TVal _ _ s => In s syms | TTime _ => False end.

(* the reader run forwards: the timesteps read from time `now` and state `st` on, the open last one
   included *)
Fixpoint replay (now : Z) (st : vstate) (toks : list tok) : list (Z * vstate) :=
  match toks with
  | [] => [(now, st)]
  | TTime t :: r => (now, st) :: replay t st r
  | TVal n u s :: r => replay now (upd s (n, u) st) r
  end.

Lemma drun_replay toks : forall d,
  rev (d_out (fold_left dstep toks d)) ++ [(d_now (fold_left dstep toks d), d_cur (fold_left dstep toks d))]
  = rev (d_out d) ++ replay (d_now d) (d_cur d) toks.
Proof.
  induction toks as [|a toks IH]; intros d; cbn [fold_left]; [reflexivity|].
  rewrite IH. destruct a; cbn [dstep d_now d_cur d_out rev replay]; [|reflexivity].
  now rewrite <- app_assoc.
Qed.

Lemma snapshots_replay toks : snapshots toks = replay (-1) [] toks.
Proof. exact (drun_replay toks d0). Qed.

Lemma snapshots_closed toks : exists p, snapshots toks = closed_snapshots toks ++ [p].
Proof. exists (d_now (drun toks), d_cur (drun toks)). reflexivity. Qed.

Lemma replay_vals syms now vs r : forall st, Forall (changes_only syms) vs ->
  replay now st (vs ++ r) = replay now (fold_left vstep vs st) r.
Proof.
  induction vs as [|a vs IH]; intros st H; [reflexivity|]. apply Forall_cons_iff in H as [Ha H'].
  destruct a as [t | n u s]; [destruct Ha|]. cbn [app replay fold_left vstep]. now apply IH.
Qed.

Lemma vrun_frame syms toks s : forall st, Forall (changes_only syms) toks -> ~ In s syms ->
  lookup s (fold_left vstep toks st) = lookup s st.
Proof.
  induction toks as [|a toks IH]; intros st H Hs; [reflexivity|]. apply Forall_cons_iff in H as [Ha H'].
  cbn [fold_left]. rewrite IH by assumption. destruct a as [t | n u s']; [destruct Ha|].
  apply lookup_upd_other. intros ->. exact (Hs Ha).
Qed.

(* what links the writer's `last_values` to the reader's state: if the remembered string of a net
   is the string of a value v of the net's width, then the reader holds v for that net *)
Fixpoint lasts_inv (st : vstate) (nets : list net) (lasts : list string) : Prop :=
  match nets, lasts with
  | (s, w) :: ns, l :: ls =>
      (forall v, 0 <= v < 2 ^ w -> l = to_vcd_str w v -> lookup s st = Some (w, v)) /\ lasts_inv st ns ls
  | [], _ => True
  | _ :: _, [] => False
  end.

Lemma lasts_inv_upd s v st nets : forall lasts,
  ~ In s (map fst nets) -> lasts_inv st nets lasts -> lasts_inv (upd s v st) nets lasts.
Proof.
  induction nets as [|[s' w] ns IH]; intros lasts Hn H; [exact I|].
  destruct lasts as [|l ls]; [exact H|]. cbn [map fst] in Hn. apply not_in_cons in Hn as [N Hn].
  destruct H as [A B]. split; [|now apply IH].
  intros u Hu E. rewrite lookup_upd_other by congruence. now apply A.
Qed.

Lemma emit_changes nets : forall vals lasts,
  Forall (changes_only (map fst nets)) (fst (emit nets vals lasts)).
Proof.
  induction nets as [|[s w] ns IH]; intros vals lasts; [constructor|].
  destruct vals as [|v vs]; [constructor|]. destruct lasts as [|l ls]; [constructor|].
  assert (T : Forall (changes_only (s :: map fst ns)) (fst (emit ns vs ls))).
  { eapply Forall_impl; [|apply IH]. intros [t | n u s'] H; [exact H | right; exact H]. }
  cbn [emit map fst]. destruct (String.eqb l (to_vcd_str w v)); [exact T|].
  constructor; [left; reflexivity | exact T].
Qed.

Lemma emit_spec nets : forall vals lasts st,
  NoDup (map fst nets) -> Forall (fun w => 0 < w) (map snd nets) ->
  Forall2 (fun w v => 0 <= v < 2 ^ w) (map snd nets) vals ->
  lasts_inv st nets lasts ->
  row (map fst nets) (fold_left vstep (fst (emit nets vals lasts)) st) = map Some (combine (map snd nets) vals)
  /\ lasts_inv (fold_left vstep (fst (emit nets vals lasts)) st) nets (snd (emit nets vals lasts)).
Proof.
  induction nets as [|[s w] ns IH]; intros vals lasts st Hnd Hw Hr Hinv; cbn [map fst snd] in *.
  - split; [reflexivity | exact I].
  - inversion Hr as [|? v ? vs Hv Hr']; subst.
    destruct lasts as [|l ls]; [contradiction|]. destruct Hinv as [Hl Hinv'].
    apply NoDup_cons_iff in Hnd as [Hnin Hnd']. apply Forall_cons_iff in Hw as [Hw1 Hw'].
    (* whether or not the net is printed, the rest of the pass starts from a state that holds
       (w, v) for it, and the string remembered afterwards is that of v *)
    assert (Step : forall st1, lookup s st1 = Some (w, v) -> lasts_inv st1 ns ls ->
      row (s :: map fst ns) (fold_left vstep (fst (emit ns vs ls)) st1)
        = map Some (combine (w :: map snd ns) (v :: vs))
      /\ lasts_inv (fold_left vstep (fst (emit ns vs ls)) st1) ((s, w) :: ns)
             (to_vcd_str w v :: snd (emit ns vs ls))).
    { intros st1 Hs Hi. destruct (IH vs ls st1 Hnd' Hw' Hr' Hi) as [I1 I2].
      rewrite <- (vrun_frame _ _ s st1 (emit_changes ns vs ls) Hnin) in Hs. split.
      - cbn [row map combine]. now rewrite Hs, <- I1.
      - split; [|exact I2]. intros v' Hv' E.
        destruct (to_vcd_str_inj w v w v' Hw1 Hv Hw1 Hv' E) as [_ <-]. exact Hs. }
    cbn [emit]. destruct (String.eqb_spec l (to_vcd_str w v)) as [-> | _]; cbn [fst snd fold_left vstep].
    + apply Step; [now apply Hl | exact Hinv'].
    + apply Step; [apply lookup_upd_same | now apply lasts_inv_upd].
Qed.

Lemma emit_lasts_length nets : forall vals lasts,
  List.length (snd (emit nets vals lasts)) = List.length lasts.
Proof.
  induction nets as [|[s w] ns IH]; intros vals lasts; [reflexivity|].
  destruct vals as [|v vs]; [reflexivity|]. destruct lasts as [|l ls]; [reflexivity|].
  cbn [emit]. destruct (String.eqb l (to_vcd_str w v)); cbn [snd List.length]; now rewrite IH.
Qed.

Lemma init_changes (nets : list net) :
  Forall (changes_only (map fst nets)) (map (fun n : net => TVal (snd n) 0 (fst n)) nets).
Proof. apply Forall_map, Forall_forall. intros n Hn. exact (in_map fst _ _ Hn). Qed.

Lemma init_spec (nets : list net) : forall st n, NoDup (map fst nets) -> In n nets ->
  lookup (fst n) (fold_left vstep (map (fun n : net => TVal (snd n) 0 (fst n)) nets) st) = Some (snd n, 0).
Proof.
  induction nets as [|[s w] ns IH]; intros st n Hnd Hin; [destruct Hin|].
  cbn [map fst snd fold_left vstep] in *. apply NoDup_cons_iff in Hnd as [Hnin Hnd'].
  destruct Hin as [<- | Hin]; [|now apply IH]. cbn [fst snd].
  rewrite (vrun_frame _ _ s _ (init_changes ns) Hnin). apply lookup_upd_same.
Qed.

(* `last_values` may be the strings of zeros of ANY widths (this is what makes the index shift of
   the code harmless): an all-zero string of another width can never be mistaken for the net's value *)
Lemma lasts_inv_init st (nets : list net) : forall zs,
  (forall n, In n nets -> lookup (fst n) st = Some (snd n, 0)) ->
  Forall (fun w => 0 < w) (map snd nets) -> Forall (fun w => 0 < w) zs ->
  (List.length nets <= List.length zs)%nat ->
  lasts_inv st nets (map (fun w => to_vcd_str w 0) zs).
Proof.
  induction nets as [|[s w] ns IH]; intros zs Hn Hw Hz Hlen; [exact I|].
  destruct zs as [|z zs]; [cbn in Hlen; lia|].
  cbn [map snd] in Hw. apply Forall_cons_iff in Hw as [Hw1 Hw']. apply Forall_cons_iff in Hz as [Hz1 Hz']. split.
  - intros v Hv E.
    destruct (to_vcd_str_inj z 0 w v Hz1 (zero_fits z Hz1) Hw1 Hv E) as [_ <-]. apply (Hn (s, w)). left. reflexivity.
  - apply IH; [|assumption..|cbn in Hlen; lia]. intros n Hin. apply Hn. right. exact Hin.
Qed.

(* what the reader sees of cycle t, t+1, ...: clock high at 100t, low at 100t+50, same row in both *)
Fixpoint cycle_views (ws : list Z) (t : Z) (tr : list (list Z))
  : list ((Z * option (Z * Z)) * list (option (Z * Z))) :=
  match tr with
  | [] => []
  | vals :: tr' =>
      let r := map Some (combine ws vals) in
      ((100 * t, Some (1, 1)), r) :: ((100 * t + 50, Some (1, 0)), r) :: cycle_views ws (t + 1) tr'
  end.

Lemma add_of_nat_S t n : t + Z.of_nat (S n) = t + 1 + Z.of_nat n.
Proof. lia. Qed.

Section Run.
Variables (clk : string) (nets : list net).
Hypothesis Hnd : NoDup (map fst nets).
Hypothesis Hclk : ~ In clk (map fst nets).
Hypothesis Hw : Forall (fun w => 0 < w) (map snd nets).

Lemma cycles_spec : forall tr t lasts st,
  Forall (fun vals => Forall2 (fun w v => 0 <= v < 2 ^ w) (map snd nets) vals) tr ->
  lookup clk st = Some (1, 1) -> lasts_inv st nets lasts ->
  exists r,
    map (view clk (map fst nets)) (replay (100 * t) st (cycles clk nets t tr lasts))
    = cycle_views (map snd nets) t tr ++ [((100 * (t + Z.of_nat (List.length tr)), Some (1, 1)), r)].
Proof.
  induction tr as [|vals tr IH]; intros t lasts st Hr Hc Hinv.
  - exists (row (map fst nets) st). cbn [cycles replay map cycle_views app List.length Z.of_nat].
    unfold view. cbn [fst snd]. now rewrite Z.add_0_r, Hc.
  - apply Forall_cons_iff in Hr as [Hr1 Hr'].
    destruct (emit_spec nets vals lasts st Hnd Hw Hr1 Hinv) as (I1 & I2).
    pose proof (vrun_frame _ _ clk st (emit_changes nets vals lasts) Hclk) as I3.
    cbn [cycles]. rewrite (replay_vals _ _ _ _ _ (emit_changes nets vals lasts)).
    set (st1 := fold_left vstep (fst (emit nets vals lasts)) st) in *.
    cbn [cycle_tail app replay]. replace (100 * t + 100) with (100 * (t + 1)) by ring.
    destruct (IH (t + 1) (snd (emit nets vals lasts)) (upd clk (1, 1) (upd clk (1, 0) st1)) Hr') as [r E].
    + apply lookup_upd_same.
    + apply lasts_inv_upd; [exact Hclk|]. apply lasts_inv_upd; [exact Hclk|]. exact I2.
    + exists r. cbn [map cycle_views app List.length]. rewrite E. unfold view. cbn [fst snd].
      now rewrite (row_upd _ _ _ _ Hclk), I1, lookup_upd_same, I3, Hc, add_of_nat_S.
Qed.

(* what the reader sees of a dump that prints the defaults of `allnets`, raises the clock and then
   runs the cycles over `nets`: all that is needed of `nets` is that the default dump covers them *)
Lemma dump_run allnets tr zs :
  NoDup (map fst allnets) -> In (clk, 1) allnets -> incl nets allnets ->
  Forall (fun w => 0 < w) zs -> (List.length (map snd nets) <= List.length zs)%nat ->
  Forall (fun vals => Forall2 (fun w v => 0 <= v < 2 ^ w) (map snd nets) vals) tr ->
  exists r0 r,
    map (view clk (map fst nets))
        (replay (-1) [] (map (fun n : net => TVal (snd n) 0 (fst n)) allnets
                         ++ [TTime 0; TVal 1 1 clk]
                         ++ cycles clk nets 0 tr (map (fun w => to_vcd_str w 0) zs)))
    = (((-1, Some (1, 0)), r0) :: cycle_views (map snd nets) 0 tr)
      ++ [((100 * Z.of_nat (List.length tr), Some (1, 1)), r)].
Proof.
  intros HndA Hc Hincl Hz Hlen Hr. rewrite map_length in Hlen.
  rewrite (replay_vals _ _ _ _ _ (init_changes allnets)).
  pose proof (fun n => init_spec allnets [] n HndA) as S0.
  set (st0 := fold_left vstep _ []) in *.
  pose proof (S0 (clk, 1) Hc) as Hc0. cbn [fst snd] in Hc0.
  cbn [app replay].
  destruct (cycles_spec tr 0 (map (fun w => to_vcd_str w 0) zs) (upd clk (1, 1) st0) Hr) as [r E].
  - apply lookup_upd_same.
  - apply lasts_inv_upd; [exact Hclk|]. apply lasts_inv_init; try assumption. intros n Hin. apply S0, Hincl, Hin.
  - exists (row (map fst nets) st0), r. cbn [map app]. f_equal; [|exact E].
    unfold view. cbn [fst snd]. now rewrite Hc0.
Qed.
End Run.

Lemma at_posedge_high t n r : at_posedge ((t, Some (n, 1)), r) = (0 <=? t).
Proof. apply andb_true_r. Qed.

Lemma at_posedge_low t n r : at_posedge ((t, Some (n, 0)), r) = false.
Proof. apply andb_false_r. Qed.

Lemma expected_rows_cons ws vals tr :
  expected_rows ws (vals :: tr) = map Some (combine ws vals) :: expected_rows ws tr.
Proof. reflexivity. Qed.

Lemma filter_cycle_views ws tr : forall t, 0 <= t ->
  map snd (filter at_posedge (cycle_views ws t tr)) = expected_rows ws tr.
Proof.
  induction tr as [|vals tr IH]; intros t Ht; [reflexivity|].
  cbn [cycle_views filter]. rewrite at_posedge_high, at_posedge_low.
  replace (0 <=? 100 * t) with true by lia. cbn [map snd].
  rewrite expected_rows_cons. f_equal. apply IH. lia.
Qed.

Lemma clock_cycle_views ws tr : forall t,
  map fst (cycle_views ws t tr) ++ [(100 * (t + Z.of_nat (List.length tr)), Some (1, 1))]
  = clock_cycles t (List.length tr).
Proof.
  induction tr as [|vals tr IH]; intros t; cbn [cycle_views map fst app List.length clock_cycles].
  - now rewrite Z.add_0_r.
  - now rewrite <- IH, add_of_nat_S.
Qed.

Lemma clock_wave_view clk syms toks :
  clock_wave clk toks = map fst (map (view clk syms) (snapshots toks)).
Proof. unfold clock_wave. now rewrite map_map. Qed.

Lemma remove_nth_map {A B} (f : A -> B) l : forall k, map f (remove_nth k l) = remove_nth k (map f l).
Proof. induction l as [|x l IH]; intros [|k]; cbn; auto. now rewrite IH. Qed.

Lemma remove_nth_In {A} (l : list A) : forall k x, In x (remove_nth k l) -> In x l.
Proof. induction l as [|y l IH]; intros [|k] x; cbn; auto. intros [H|H]; eauto. Qed.

Lemma remove_nth_NoDup {A} (l : list A) : forall k, NoDup l -> NoDup (remove_nth k l).
Proof.
  induction l as [|y l IH]; intros k H; [destruct k; exact H|]. apply NoDup_cons_iff in H as [Hy H].
  destruct k as [|k]; cbn; [exact H|]. constructor; [|apply IH, H].
  intros Hin. exact (Hy (remove_nth_In _ _ _ Hin)).
Qed.

Lemma remove_nth_not_In {A} (l : list A) d : forall k, NoDup l -> (k < List.length l)%nat ->
  ~ In (nth k l d) (remove_nth k l).
Proof.
  induction l as [|y l IH]; intros k H Hk; cbn [List.length] in Hk; [lia|]. apply NoDup_cons_iff in H as [Hy H].
  destruct k as [|k]; cbn [nth remove_nth]; [exact Hy|]. intros [E|Hin].
  - apply Hy. rewrite E. apply nth_In. lia.
  - exact (IH k H ltac:(lia) Hin).
Qed.

Lemma remove_nth_length_le {A} (l : list A) : forall k, (List.length (remove_nth k l) <= List.length l)%nat.
Proof. induction l as [|y l IH]; intros [|k]; cbn; try lia. specialize (IH k). lia. Qed.

Lemma Forall_remove_nth {A} (P : A -> Prop) k l : Forall P l -> Forall P (remove_nth k l).
Proof. rewrite !Forall_forall. intros H x Hx. apply H. eapply remove_nth_In; exact Hx. Qed.

Lemma map_fst_combine {A B} (a : list A) : forall (b : list B),
  List.length a = List.length b -> map fst (combine a b) = a.
Proof. induction a; intros [|y b] H; cbn in *; try lia; auto. f_equal; auto. Qed.

Lemma map_snd_combine {A B} (a : list A) : forall (b : list B),
  List.length a = List.length b -> map snd (combine a b) = b.
Proof. induction a; intros [|y b] H; cbn in *; try lia; auto. f_equal; auto. Qed.

Lemma Forall2_len {A B} (P : A -> B -> Prop) l l' : Forall2 P l l' -> List.length l = List.length l'.
Proof. induction 1; cbn; auto. Qed.

Definition wf_widths (ws : list Z) (k : nat) : Prop :=
  (k < List.length ws)%nat /\ nth k ws 0 = 1 /\ Forall (fun w => 0 < w) ws.
Definition wf_trace (ws : list Z) (k : nat) (tr : list (list Z)) : Prop :=
  Forall (fun vals => Forall2 (fun w v => 0 <= v < 2 ^ w) (remove_nth k ws) vals) tr.

Lemma vcd_nets_fst ws : map fst (vcd_nets ws) = all_syms (List.length ws).
Proof. apply map_fst_combine, all_syms_length. Qed.

Lemma vcd_nets_snd ws : map snd (vcd_nets ws) = ws.
Proof. apply map_snd_combine, all_syms_length. Qed.

Lemma vcd_clk_In ws k : (k < List.length ws)%nat -> In (vcd_clk ws k, nth k ws 0) (vcd_nets ws).
Proof.
  intros Hk. unfold vcd_clk, vcd_nets. rewrite <- combine_nth by apply all_syms_length.
  apply nth_In. rewrite combine_length, all_syms_length. lia.
Qed.

Lemma vcd_body_views ws k tr : wf_widths ws k -> wf_trace ws k tr ->
  exists r0 r,
    map (view (vcd_clk ws k) (remove_nth k (all_syms (List.length ws)))) (snapshots (vcd_body ws k tr))
    = (((-1, Some (1, 0)), r0) :: cycle_views (remove_nth k ws) 0 tr)
      ++ [((100 * Z.of_nat (List.length tr), Some (1, 1)), r)].
Proof.
  intros (Hk & Hk1 & Hpos) Htr.
  pose proof (all_syms_NoDup (List.length ws)) as Hnd.
  assert (Hnf : map fst (remove_nth k (vcd_nets ws)) = remove_nth k (all_syms (List.length ws)))
    by now rewrite remove_nth_map, vcd_nets_fst.
  assert (Hns : map snd (remove_nth k (vcd_nets ws)) = remove_nth k ws)
    by now rewrite remove_nth_map, vcd_nets_snd.
  destruct (dump_run (vcd_clk ws k) (remove_nth k (vcd_nets ws))) with (allnets := vcd_nets ws) (tr := tr) (zs := ws)
    as (r0 & r & E).
  - rewrite Hnf. now apply remove_nth_NoDup.
  - rewrite Hnf. apply remove_nth_not_In; [assumption | now rewrite all_syms_length].
  - rewrite Hns. now apply Forall_remove_nth.
  - now rewrite vcd_nets_fst.
  - rewrite <- Hk1. now apply vcd_clk_In.
  - intros n. apply remove_nth_In.
  - exact Hpos.
  - rewrite Hns. apply remove_nth_length_le.
  - rewrite Hns. exact Htr.
  - exists r0, r. rewrite Hnf, Hns in E. rewrite snapshots_replay. exact E.
Qed.

Theorem encode_decode ws k tr : wf_widths ws k -> wf_trace ws k tr ->
  decode (vcd_clk ws k) (remove_nth k (all_syms (List.length ws))) (vcd_body ws k tr)
  = expected_rows (remove_nth k ws) tr.
Proof.
  intros Hw Ht. destruct (vcd_body_views ws k tr Hw Ht) as (r0 & r & E).
  destruct (snapshots_closed (vcd_body ws k tr)) as [p Ep].
  rewrite Ep, map_app in E. apply app_inj_tail in E as [E _].
  unfold decode. rewrite E. cbn [filter]. rewrite at_posedge_low.
  apply filter_cycle_views. lia.
Qed.

Theorem clock_toggles ws k tr : wf_widths ws k -> wf_trace ws k tr ->
  clock_wave (vcd_clk ws k) (vcd_body ws k tr) = expected_clock (List.length tr).
Proof.
  intros Hw Ht. destruct (vcd_body_views ws k tr Hw Ht) as (r0 & r & E).
  rewrite (clock_wave_view _ (remove_nth k (all_syms (List.length ws)))), E, map_app.
  cbn [map fst app]. unfold expected_clock. f_equal. exact (clock_cycle_views (remove_nth k ws) tr 0).
Qed.

Lemma strip_row_expected ws : forall vals, List.length ws = List.length vals ->
  strip_row (map Some (combine ws vals)) = Some vals.
Proof.
  induction ws as [|w ws IH]; intros [|v vals] H; cbn in *; try lia; auto.
  rewrite IH by lia. reflexivity.
Qed.

Lemma strip_rows_expected ws tr : Forall (fun vals => List.length ws = List.length vals) tr ->
  strip_rows (expected_rows ws tr) = Some tr.
Proof.
  induction tr as [|vals tr IH]; intros H; [reflexivity|]. apply Forall_cons_iff in H as [L H'].
  rewrite expected_rows_cons. cbn [strip_rows]. rewrite strip_row_expected by assumption.
  now rewrite IH.
Qed.

Theorem encode_decode_values ws k tr : wf_widths ws k -> wf_trace ws k tr ->
  decode_values (vcd_clk ws k) (remove_nth k (all_syms (List.length ws))) (vcd_body ws k tr) = Some tr.
Proof.
  intros Hw Ht. unfold decode_values. rewrite encode_decode by assumption.
  apply strip_rows_expected. eapply Forall_impl; [|exact Ht].
  intros vals H. eapply Forall2_len; exact H.
Qed.

Definition wf_tok (t : tok) : Prop :=
  match t with
  | TTime _ => True
  | TVal n u s => 0 < n /\ 0 <= u < 2 ^ n /\ nonempty s = true
  end.

Lemma parse_print toks : Forall wf_tok toks -> parse_lines (map print_tok toks) = Some toks.
Proof.
  induction toks as [|t toks IH]; intros H; [reflexivity|]. apply Forall_cons_iff in H as [Ht H'].
  cbn [map parse_lines]. rewrite (IH H'). destruct t as [t|n u s]; [reflexivity|].
  destruct Ht as (A & B & C). cbn [print_tok parse_line]. now rewrite vcd_str_roundtrip.
Qed.

Definition good_net (n : net) : Prop := 0 < snd n /\ nonempty (fst n) = true.

Lemma emit_wf nets : forall vals lasts, Forall good_net nets ->
  Forall2 (fun w v => 0 <= v < 2 ^ w) (map snd nets) vals ->
  Forall wf_tok (fst (emit nets vals lasts)).
Proof.
  induction nets as [|[s w] ns IH]; intros vals lasts Hg Hr; [constructor|].
  cbn [map snd] in Hr. inversion Hr as [|? v ? vs Hv Hr']; subst. apply Forall_cons_iff in Hg as [[G1 G2] Hg'].
  destruct lasts as [|l ls]; [constructor|]. cbn [emit].
  destruct (String.eqb l (to_vcd_str w v)); cbn [fst]; [now apply IH|].
  constructor; [|now apply IH]. exact (conj G1 (conj Hv G2)).
Qed.

Lemma cycles_wf clk nets : forall tr t lasts, nonempty clk = true -> Forall good_net nets ->
  Forall (fun vals => Forall2 (fun w v => 0 <= v < 2 ^ w) (map snd nets) vals) tr ->
  Forall wf_tok (cycles clk nets t tr lasts).
Proof.
  assert (R1 : 0 <= 1 < 2 ^ 1) by (cbn; lia). assert (R0 : 0 <= 0 < 2 ^ 1) by (cbn; lia).
  induction tr as [|vals tr IH]; intros t lasts Hc Hg Hr; [constructor|].
  apply Forall_cons_iff in Hr as [Hr1 Hr']. cbn [cycles]. apply Forall_app. split; [now apply emit_wf|].
  apply Forall_app. split; [|now apply IH].
  unfold cycle_tail. repeat constructor; auto; lia.
Qed.

Lemma vcd_body_wf ws k tr : wf_widths ws k -> wf_trace ws k tr -> Forall wf_tok (vcd_body ws k tr).
Proof.
  intros (Hk & Hk1 & Hpos) Htr.
  assert (Hg : Forall good_net (vcd_nets ws)).
  { apply Forall_forall. intros [s w] Hin. split; cbn [fst snd].
    - rewrite Forall_forall in Hpos. apply Hpos. eapply in_combine_r; exact Hin.
    - eapply all_syms_nonempty. eapply in_combine_l; exact Hin. }
  assert (Hc : nonempty (vcd_clk ws k) = true).
  { eapply all_syms_nonempty. unfold vcd_clk. apply nth_In. now rewrite all_syms_length. }
  assert (R1 : 0 <= 1 < 2 ^ 1) by (cbn; lia).
  unfold vcd_body. apply Forall_app. split; [|apply Forall_app; split].
  - apply Forall_map. eapply Forall_impl; [|exact Hg]. intros n [A B].
    exact (conj A (conj (zero_fits _ A) B)).
  - repeat constructor; auto; lia.
  - apply cycles_wf; [assumption| |].
    + now apply Forall_remove_nth.
    + rewrite remove_nth_map, vcd_nets_snd. exact Htr.
Qed.

Theorem encode_decode_lines ws k tr : wf_widths ws k -> wf_trace ws k tr ->
  decode_lines (vcd_clk ws k) (remove_nth k (all_syms (List.length ws))) (vcd_lines ws k tr)
  = Some (expected_rows (remove_nth k ws) tr).
Proof.
  intros Hw Ht. unfold decode_lines, vcd_lines. rewrite parse_print by (now apply vcd_body_wf).
  now rewrite encode_decode.
Qed.

Theorem net_share clk syms toks r i j :
  In r (decode clk syms toks) -> nth i syms EmptyString = nth j syms EmptyString ->
  (i < List.length syms)%nat -> (j < List.length syms)%nat ->
  nth i r None = nth j r None.
Proof.
  intros Hin E Hi Hj. unfold decode in Hin. apply in_map_iff in Hin as (v & <- & Hv).
  apply filter_In in Hv as [Hv _]. apply in_map_iff in Hv as (p & <- & _).
  unfold view, row. cbn [snd].
  rewrite (nth_indep _ None (lookup EmptyString (snd p))) by (rewrite map_length; lia).
  rewrite (nth_indep _ None (lookup EmptyString (snd p)) (n := j)) by (rewrite map_length; lia).
  rewrite !(map_nth (fun s => lookup s (snd p))). now rewrite E.
Qed.

Lemma row_matches_expected ws : forall vals, Forall (fun w => 0 < w) ws ->
  List.length ws = List.length vals -> row_matches ws vals (map Some (combine ws vals)) = true.
Proof.
  induction ws as [|w ws IH]; intros [|v vals] Hw L; cbn [List.length] in L; try lia; [reflexivity|].
  apply Forall_cons_iff in Hw as [Hw1 Hw']. cbn [combine map row_matches val_matches].
  rewrite IH by (assumption || lia). lia.
Qed.

Lemma rows_match_expected ws tr :
  Forall (fun w => 0 < w) ws -> Forall (fun vals => List.length ws = List.length vals) tr ->
  rows_match ws tr (expected_rows ws tr) = true.
Proof.
  intros Hw Ht. induction tr as [|vals tr IH]; [reflexivity|]. apply Forall_cons_iff in Ht as [L Ht'].
  rewrite expected_rows_cons. cbn [rows_match]. now rewrite row_matches_expected, IH.
Qed.

Definition shows (v : Z) (g : option (Z * Z)) : Prop := exists n, g = Some (n, v).

Lemma row_matches_sound ws : forall vs got, row_matches ws vs got = true -> Forall2 shows vs got.
Proof.
  induction ws as [|w ws IH]; intros [|v vs] [|g got] H; cbn [row_matches] in H; try discriminate; [constructor|].
  apply andb_true_iff in H as [A B]. constructor; [|now apply IH].
  unfold val_matches in A. destruct g as [[n u]|]; [|discriminate]. exists n. f_equal. f_equal. lia.
Qed.

Theorem rows_match_sound ws : forall tr got, rows_match ws tr got = true -> Forall2 (Forall2 shows) tr got.
Proof.
  induction tr as [|vs tr IH]; intros [|g got] H; cbn [rows_match] in H; try discriminate; [constructor|].
  apply andb_true_iff in H as [A B]. constructor; [now apply (row_matches_sound ws)|now apply IH].
Qed.
