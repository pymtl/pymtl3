(* Props/C17.v — property C17: library queues are FIFOs with their advertised same-cycle behaviour.
   ONLY statements, each closed by `exact`/`apply` (the examples by computation); Print Assumptions for each at the end.

   Specification          : Lib/Fifo.v      fifo_step k n   (k = Normal | Pipe | Bypass, any capacity n >= 1)
   Concrete models        : Lib/QueueRTL.v  crtl_step (head/tail/count + register file; queues.py and stream/queues.py),
                            e1_step / s1_step / p1_step / v1_step (the four families of one-entry queues),
                            vq_step (valrdy NormalQueueRTL: enq_ptr/deq_ptr/full),  Lib/QueueCL.v cl_step (CL deque queues)
   Every theorem below is for ALL n >= 1 (one-entry models: n = 1), ALL kinds, ALL input sequences that respect the
   interface protocol, an abstract message type M. *)
From PV Require Import Base.Prelude Lib.Fifo Lib.QueueRTL Lib.QueueCL Lib.QueueProofs.
(* generated-from-source instances proved equal to the hand model at small parameters: no name of that file is used
   below, the import puts it into the build closure of this one *)
From PV Require Import Props.C17_gen.
Open Scope nat_scope.

(* enqueue ready iff not full, plus (pipe only) when a dequeue happens in the same cycle *)
Theorem C17_spec_enq_rdy {M} k n (q : list M) o :
  f_enq_rdy (snd (fifo_step k n q o)) = true <->
  (length q < n \/ (k = Pipe /\ f_deq_fire (snd (fifo_step k n q o)) = true)).
Proof. exact (fifo_enq_rdy_rule k n q o). Qed.
(* dequeue ready iff not empty, plus (bypass only) when an enqueue happens in the same cycle *)
Theorem C17_spec_deq_rdy {M} k n (q : list M) o :
  f_deq_rdy (snd (fifo_step k n q o)) = true <->
  (0 < length q \/ (k = Bypass /\ f_enq_fire (snd (fifo_step k n q o)) = true)).
Proof. exact (fifo_deq_rdy_rule k n q o). Qed.
(* (0 < n is not used) *)
Theorem C17_spec_pipe_when_full {M} n (q : list M) o : length q = n -> 0 < n ->
  f_enq_rdy (snd (fifo_step Pipe n q o)) = f_deq_fire (snd (fifo_step Pipe n q o)).
Proof. intros Hl _. exact (fifo_pipe_full n q o Hl). Qed.
Theorem C17_spec_bypass_when_empty {M} n (o : offer M) : 0 < n ->
  f_deq_rdy (snd (fifo_step Bypass n [] o)) = f_enq_fire (snd (fifo_step Bypass n [] o)) /\
  (f_deq_fire (snd (fifo_step Bypass n [] o)) = true -> f_msg (snd (fifo_step Bypass n [] o)) = Some (o_msg o)).
Proof. exact (fifo_bypass_empty n o). Qed.
(* a transfer happens iff it is offered and the queue is ready; count exact; capacity never exceeded *)
Theorem C17_spec_fire {M} k n (q : list M) o :
  f_enq_fire (snd (fifo_step k n q o)) = (o_enq o && f_enq_rdy (snd (fifo_step k n q o)))%bool /\
  f_deq_fire (snd (fifo_step k n q o)) = (o_deq o && f_deq_rdy (snd (fifo_step k n q o)))%bool.
Proof. exact (fifo_fire_rule k n q o). Qed.
Theorem C17_spec_count {M} k n (q : list M) o : f_count (snd (fifo_step k n q o)) = length q.
Proof. exact (fifo_step_count k n q o). Qed.
(* (0 < n is not used) *)
Theorem C17_spec_capacity {M} k n (os : list (bool * offer M)) q : 0 < n -> length q <= n ->
  length (fst (fifo_run k n q os)) <= n.
Proof. intros _. exact (fifo_run_bound k n os q). Qed.
(* messages: what was queued ++ what is accepted = what is delivered ++ what stays queued (order preserved,
   nothing lost, duplicated or invented), over any reset-free offer sequence *)
Theorem C17_spec_fifo_order {M} k n (os : list (bool * offer M)) q : no_reset os ->
  q ++ accepted os (snd (fifo_run k n q os)) = delivered (snd (fifo_run k n q os)) ++ fst (fifo_run k n q os).
Proof. intros H. exact (fifo_run_conserve k n os H q). Qed.
Theorem C17_spec_reset {M} k n (q : list M) o : fifo_step_r k n q true o = ([], None).
Proof. exact (fifo_reset k n q o). Qed.

(* multi-entry RTL queues (queues.py: gated = true, stream/queues.py: gated = false); NO protocol assumption needed *)
Theorem C17_ctrl_cycle {M} k n gated (s : cstate M) i : 0 < n -> c_inv n s ->
  c_inv n (fst (crtl_step k n gated s i)) /\
  c_abs n (fst (crtl_step k n gated s i)) = fst (fifo_step_r k n (c_abs n s) (i_rst i) (offer_of i)) /\
  (i_rst i = false -> snd (crtl_step k n gated s i) = snd (fifo_step k n (c_abs n s) (offer_of i))).
Proof. intros Hn Hi. exact (crtl_sim k n gated Hn s i Hi I). Qed.
(* queues.py one-entry queues, en/rdy protocol (en only when rdy) *)
Theorem C17_e1_cycle {M} k (s : ostate M) i : e1_legal k s i ->
  o_abs (fst (e1_step k s i)) = fst (fifo_step_r k 1 (o_abs s) (i_rst i) (offer_of i)) /\
  (i_rst i = false -> snd (e1_step k s i) = snd (fifo_step k 1 (o_abs s) (offer_of i))).
Proof. intros Hl. exact (proj2 (e1_sim k s i I Hl)). Qed.
(* stream one-entry queues, any val/rdy inputs *)
Theorem C17_s1_cycle {M} k (s : ostate M) i :
  o_abs (fst (s1_step k s i)) = fst (fifo_step_r k 1 (o_abs s) (i_rst i) (offer_of i)) /\
  (i_rst i = false -> snd (s1_step k s i) = snd (fifo_step k 1 (o_abs s) (offer_of i))).
Proof. exact (proj2 (s1_sim k s i I I)). Qed.
(* enrdy_queues.py one-entry queues (push-style send side), enq.en only when enq.rdy, reset only for Bypass *)
Theorem C17_p1_cycle {M} k (s : ostate M) i : p1_legal k s i ->
  o_abs (fst (p1_step k s i)) = fst (fifo_step_r k 1 (o_abs s) (i_rst i) (offer_of i)) /\
  (i_rst i = false -> snd (p1_step k s i) = snd (fifo_step k 1 (o_abs s) (offer_of i))).
Proof. intros Hl. exact (proj2 (p1_sim k s i I Hl)). Qed.
(* valrdy_queues.py one-entry queues, any val/rdy inputs, no reset *)
Theorem C17_v1_cycle {M} k (s : ostate M) i : i_rst i = false ->
  o_abs (fst (v1_step k s i)) = fst (fifo_step k 1 (o_abs s) (offer_of i)) /\
  snd (v1_step k s i) = snd (fifo_step k 1 (o_abs s) (offer_of i)).
Proof. intros Hr. exact (step_spec k 1 _ _ _ _ (v1_sim k) s i I Hr Hr). Qed.
(* valrdy_queues.py NormalQueueRTL (pointer + full-bit representation) *)
Theorem C17_vq_cycle {M} n (s : vstate M) i : 0 < n -> v_inv n s ->
  v_inv n (fst (vq_step n s i)) /\
  v_abs n (fst (vq_step n s i)) = fst (fifo_step_r Normal n (v_abs n s) (i_rst i) (offer_of i)) /\
  (i_rst i = false -> snd (vq_step n s i) = snd (fifo_step Normal n (v_abs n s) (offer_of i))).
Proof. intros Hn Hi. exact (vq_sim n Hn s i Hi I). Qed.
(* CL queues: the deque driven in the call order forced by the method constraints (either order for Normal) *)
Theorem C17_cl_cycle {M} k n enq_first (q : list M) o : 0 < n -> length q <= n ->
  cl_step k n enq_first q o = fifo_step k n q o.
Proof. exact (cl_step_spec k n enq_first q o). Qed.

Section Any.
  Context {M S : Type} (k : qkind) (n : nat) (step : S -> rin M -> S * fout M) (abs : S -> list M)
          (inv : S -> Prop) (legal : S -> rin M -> Prop).
  (* ready/valid exactly when the kind says, fire = offer && ready, delivered iff fire, count exact and <= n
     (0 < n is not used) *)
  Theorem C17_rules : 0 < n -> sim1 k n step abs inv legal -> (forall s, inv s -> length (abs s) <= n) ->
    forall s i, inv s -> legal s i -> i_rst i = false ->
    let f := snd (step s i) in
    (f_enq_rdy f = true <-> (length (abs s) < n \/ (k = Pipe /\ f_deq_fire f = true))) /\
    (f_deq_rdy f = true <-> (0 < length (abs s) \/ (k = Bypass /\ f_enq_fire f = true))) /\
    f_enq_fire f = (i_enq i && f_enq_rdy f)%bool /\ f_deq_fire f = (i_deq i && f_deq_rdy f)%bool /\
    (f_msg f <> None <-> f_deq_fire f = true) /\
    f_count f = length (abs s) /\ f_count f <= n.
  Proof. intros _ Hs Hb. exact (step_rules k n step abs inv legal Hs Hb). Qed.
  (* over any protocol-legal run (resets allowed): every cycle's outputs are the spec's, so is the final content *)
  Theorem C17_run_outputs : sim1 k n step abs inv legal ->
    forall is s, inv s -> legal_run step legal s is ->
    snd (run step s is) = snd (fifo_run k n (abs s) (offers_of is)) /\
    abs (fst (run step s is)) = fst (fifo_run k n (abs s) (offers_of is)) /\
    inv (fst (run step s is)).
  Proof. intros Hs. exact (sim1_run k n step abs inv legal Hs). Qed.
  (* from an empty queue, over a reset-free legal run: accepted = delivered ++ still-queued, and at most n are queued *)
  Theorem C17_run_fifo : sim1 k n step abs inv legal -> (forall s, inv s -> length (abs s) <= n) ->
    forall is s, inv s -> abs s = [] -> legal_run step legal s is -> rst_free is ->
    accepted (offers_of is) (snd (run step s is)) = delivered (snd (run step s is)) ++ abs (fst (run step s is)) /\
    length (abs (fst (run step s is))) <= n.
  Proof. intros Hs Hb. exact (run_fifo k n step abs inv legal Hs Hb). Qed.
  (* reset returns to the empty queue *)
  Theorem C17_reset : sim1 k n step abs inv legal ->
    forall s i, inv s -> legal s i -> i_rst i = true -> abs (fst (step s i)) = [] /\ inv (fst (step s i)).
  Proof. intros Hs. exact (step_reset k n step abs inv legal Hs). Qed.
End Any.

Theorem C17_ctrl_fifo {M} k n gated (d : M) is : 0 < n -> rst_free is ->
  let r := run (crtl_step k n gated) (c_init d) is in
  accepted (offers_of is) (snd r) = delivered (snd r) ++ c_abs n (fst r) /\ c_count (fst r) = length (c_abs n (fst r)) /\
  length (c_abs n (fst r)) <= n.
Proof. exact (crtl_run_fifo k n gated d is). Qed.
Theorem C17_ctrl_outputs {M} k n gated (d : M) is : 0 < n ->
  snd (run (crtl_step k n gated) (c_init d) is) = snd (fifo_run k n [] (offers_of is)).
Proof.
  intros Hn. exact (proj1 (sim1_run k n _ _ _ _ (crtl_sim k n gated Hn) is (c_init d) (c_init_inv n d Hn) (legal_run_trivial _ is _))).
Qed.
Theorem C17_ctrl_reset {M} k n gated (s : cstate M) i : 0 < n -> c_inv n s -> i_rst i = true ->
  fst (crtl_step k n gated s i) = mkC 0 0 0 (c_regs (fst (crtl_step k n gated s i))) /\ c_abs n (fst (crtl_step k n gated s i)) = [].
Proof. exact (crtl_reset k n gated s i). Qed.
Theorem C17_e1_fifo {M} k (d : M) is : legal_run (e1_step k) (e1_legal k) (o_init d) is -> rst_free is ->
  let r := run (e1_step k) (o_init d) is in
  accepted (offers_of is) (snd r) = delivered (snd r) ++ o_abs (fst r) /\ length (o_abs (fst r)) <= 1.
Proof. intros Hl Hr. exact (run_fifo k 1 _ _ _ _ (e1_sim k) o_bound is (o_init d) I eq_refl Hl Hr). Qed.
Theorem C17_s1_fifo {M} k (d : M) is : rst_free is ->
  let r := run (s1_step k) (o_init d) is in
  accepted (offers_of is) (snd r) = delivered (snd r) ++ o_abs (fst r) /\ length (o_abs (fst r)) <= 1.
Proof. intros Hr. exact (run_fifo k 1 _ _ _ _ (s1_sim k) o_bound is (o_init d) I eq_refl (legal_run_trivial _ is _) Hr). Qed.
Theorem C17_p1_fifo {M} k (d : M) is : legal_run (p1_step k) (p1_legal k) (o_init d) is -> rst_free is ->
  let r := run (p1_step k) (o_init d) is in
  accepted (offers_of is) (snd r) = delivered (snd r) ++ o_abs (fst r) /\ length (o_abs (fst r)) <= 1.
Proof. intros Hl Hr. exact (run_fifo k 1 _ _ _ _ (p1_sim k) o_bound is (o_init d) I eq_refl Hl Hr). Qed.
Theorem C17_v1_fifo {M} k (d : M) is : legal_run (v1_step k) v1_legal (o_init d) is -> rst_free is ->
  let r := run (v1_step k) (o_init d) is in
  accepted (offers_of is) (snd r) = delivered (snd r) ++ o_abs (fst r) /\ length (o_abs (fst r)) <= 1.
Proof. intros Hl Hr. exact (run_fifo k 1 _ _ _ _ (v1_sim k) o_bound is (o_init d) I eq_refl Hl Hr). Qed.
Theorem C17_vq_fifo {M} n (d : M) is : 0 < n -> rst_free is ->
  let r := run (vq_step n) (v_init d) is in
  accepted (offers_of is) (snd r) = delivered (snd r) ++ v_abs n (fst r) /\ length (v_abs n (fst r)) <= n.
Proof.
  intros Hn Hr. exact (run_fifo Normal n _ _ _ _ (vq_sim n Hn) (v_bound n) is (v_init d) (v_init_inv n d Hn) eq_refl (legal_run_trivial _ is _) Hr).
Qed.
Theorem C17_cl_fifo {M} k n enq_first (is : list (rin M)) : 0 < n -> rst_free is ->
  let r := run (cl_mstep k n enq_first) [] is in
  accepted (offers_of is) (snd r) = delivered (snd r) ++ fst r /\ length (fst r) <= n.
Proof. exact (cl_run_fifo k n enq_first is). Qed.

Theorem C17_spec_head_is_delivered {M} k n (q : list M) o : f_deq_fire (snd (fifo_step k n q o)) = true ->
  f_msg (snd (fifo_step k n q o)) = fifo_head q o (snd (fifo_step k n q o)).
Proof. exact (fifo_head_delivered k n q o). Qed.
Theorem C17_spec_head_is_oldest {M} k n (a : M) q o : fifo_head (a :: q) o (snd (fifo_step k n (a :: q) o)) = Some a.
Proof. exact (fifo_head_oldest k n a q o). Qed.
(* definitional: Lib/QueueCL.v gives peek the text of deq's message component and of its readiness *)
Theorem C17_cl_peek {M} (q : list M) : cl_peek q = snd (cl_deq q) /\ cl_peek_rdy q = cl_deq_rdy q.
Proof. exact (conj eq_refl eq_refl). Qed.
(* (0 < n and length q <= n are not used) *)
Theorem C17_cl_peek_then_deq {M} k n enq_first (q : list M) o : 0 < n -> length q <= n ->
  f_deq_fire (snd (cl_step k n enq_first q o)) = true ->
  (k = Pipe -> enq_first = false) -> (k = Bypass -> enq_first = true) ->
  f_msg (snd (cl_step k n enq_first q o)) = cl_peek (cl_at_consumer enq_first q o (snd (cl_step k n enq_first q o))).
Proof. intros _ _. exact (cl_peek_then_deq k n enq_first q o). Qed.

(* what the harness evaluates on the observed end-to-end streams (stream_first_bad = None) implies, for a reset-free
   history that starts and ends with nothing outstanding: delivered = accepted, as lists *)
Theorem C17_stream_acceptor cap (h : list obs) : Forall (fun c => b_rst c = false) h ->
  stream_first_bad cap [] 0 h = None -> obs_delivered h = obs_accepted h.
Proof. intros Hr E. exact (stream_drained_sound cap h Hr (stream_first_bad_none cap h [] 0 E)). Qed.
Theorem C17_stream_acceptor_prefix cap (h : list obs) q' : Forall (fun c => b_rst c = false) h ->
  stream_run cap [] h = Some q' -> obs_accepted h = obs_delivered h ++ q' /\ length q' <= cap.
Proof. intros Hr E. exact (stream_run_sound cap h Hr [] q' (Nat.le_0_l cap) E). Qed.

(* non-vacuity: legal runs exist and exercise the same-cycle rules *)
Local Open Scope Z_scope.
(* capacity-3 pipe queue: fill, then enqueue-while-full together with a dequeue; wraps around index n-1 *)
Example C17_nonvacuous_pipe3 :
  let is := [mkIn false true 1 false; mkIn false true 2 false; mkIn false true 3 false;
             mkIn false true 4 true; mkIn false true 5 false; mkIn false false 0 true; mkIn false false 0 true] in
  let r := run (crtl_step Pipe 3 true) (c_init 0) is in
  rst_free is /\ delivered (snd r) = [1; 2; 3] /\ c_abs 3 (fst r) = [4] /\ accepted (offers_of is) (snd r) = [1; 2; 3; 4].
Proof. cbn zeta. split; [repeat constructor|]. vm_compute. repeat split. Qed.
(* one-entry bypass queue under the en/rdy protocol: a same-cycle enqueue+dequeue on an empty queue is legal *)
Example C17_nonvacuous_bypass1 :
  let is := [mkIn false true 7 true; mkIn false true 8 false; mkIn false false 0 true] in
  legal_run (e1_step Bypass) (e1_legal Bypass) (o_init 0) is /\ rst_free is /\
  delivered (snd (run (e1_step Bypass) (o_init 0) is)) = [7; 8].
Proof.
  cbn zeta. split; [|split; [repeat constructor|vm_compute; reflexivity]].
  cbn. unfold e1_legal. cbn. repeat split; intros; try reflexivity; discriminate.
Qed.

Print Assumptions C17_spec_enq_rdy. Print Assumptions C17_spec_deq_rdy. Print Assumptions C17_spec_pipe_when_full.
Print Assumptions C17_spec_bypass_when_empty. Print Assumptions C17_spec_fire. Print Assumptions C17_spec_count.
Print Assumptions C17_spec_capacity. Print Assumptions C17_spec_fifo_order. Print Assumptions C17_spec_reset.
Print Assumptions C17_ctrl_cycle. Print Assumptions C17_e1_cycle. Print Assumptions C17_s1_cycle.
Print Assumptions C17_p1_cycle. Print Assumptions C17_v1_cycle. Print Assumptions C17_vq_cycle. Print Assumptions C17_cl_cycle.
Print Assumptions C17_rules. Print Assumptions C17_run_outputs. Print Assumptions C17_run_fifo. Print Assumptions C17_reset.
Print Assumptions C17_ctrl_fifo. Print Assumptions C17_ctrl_outputs. Print Assumptions C17_ctrl_reset.
Print Assumptions C17_e1_fifo. Print Assumptions C17_s1_fifo. Print Assumptions C17_p1_fifo. Print Assumptions C17_v1_fifo.
Print Assumptions C17_vq_fifo. Print Assumptions C17_cl_fifo.
Print Assumptions C17_nonvacuous_pipe3. Print Assumptions C17_nonvacuous_bypass1.
Print Assumptions C17_stream_acceptor. Print Assumptions C17_stream_acceptor_prefix.
Print Assumptions C17_spec_head_is_delivered. Print Assumptions C17_spec_head_is_oldest. Print Assumptions C17_cl_peek. Print Assumptions C17_cl_peek_then_deq.
