(* Props/C07.v — property C07: flip-flop updates are atomic at the clock edge.  Statements closed by exact of a theorem
   of Sched/, or in two lines from the correctness lemmas of the Bits model; evaluated examples. *)
From Coq Require Import List Bool Arith Lia Permutation.
Import ListNotations.
From PV Require Import Sched.Block Sched.Confluence Sched.FFEdge.
From PV Require Import Base.Prelude Bits.BitsSpec Gen.BitsGen Bits.BitsProofs.

Section C07.
Context {var val : Type}.
Variable B : nat -> blk var val.
Variable ffs : list nat.
Hypothesis Hframe : forall i, In i ffs -> frame (B i).
Hypothesis Hdep   : forall i, In i ffs -> dep (B i).
Hypothesis Hsw    : single_writer B ffs.
(* update_ff blocks write next-values only, and no update_ff block reads a next-value of another block *)
Hypothesis Hff : forall i j v, In i ffs -> In j ffs -> i <> j -> wr (B i) v = true -> rd (B j) v = false.

Theorem C07_any_ff_order s t : NoDup s -> Permutation s t -> incl s ffs ->
  forall e, eqe (run_list B s e) (run_list B t e).
Proof. exact (ff_perm_indep B ffs Hframe Hdep Hsw Hff s t). Qed.

Theorem C07_every_block_sees_preedge_state s : NoDup s -> incl s ffs ->
  forall e i v, In i s -> wr (B i) v = true -> run_list B s e v = run (B i) e v.
Proof. exact (ff_observes_preedge B ffs Hframe Hdep Hsw Hff s). Qed.

(* "a register not assigned in a cycle holds its value" *)
Theorem C07_unassigned_holds s : incl s ffs ->
  forall e v, (forall i, In i s -> wr (B i) v = false) -> run_list B s e v = e v.
Proof. exact (ff_hold B ffs Hframe s). Qed.

(* the edge is a function of the pre-edge state alone: each variable is what its one writer computes from the
   pre-edge state, or its pre-edge value when nothing writes it *)
Theorem C07_edge_is_function_of_preedge_state s : NoDup s -> incl s ffs ->
  forall e v,
    (exists i, In i s /\ wr (B i) v = true /\ run_list B s e v = run (B i) e v) \/
    ((forall i, In i s -> wr (B i) v = false) /\ run_list B s e v = e v).
Proof. exact (ff_edge_function B ffs Hframe Hdep Hsw Hff s). Qed.

(* state_{t+1} == F(state_t, in_t): pre-edge states agreeing on what the blocks read and write give, in any two
   orders, post-edge states agreeing on everything written *)
Theorem C07_edge_determined_by_preedge_state s t e1 e2 : NoDup s -> Permutation s t -> incl s ffs ->
  (forall i v, In i s -> rd (B i) v = true \/ wr (B i) v = true -> e1 v = e2 v) ->
  forall i v, In i s -> wr (B i) v = true -> run_list B s e1 v = run_list B t e2 v.
Proof. exact (ff_edge_determined B ffs Hframe Hdep Hsw Hff s t e1 e2). Qed.
(* "forall input sequences": any number of edges, each run in its own order of the blocks, from equal states: equal states *)
Theorem C07_any_number_of_edges_any_orders os1 os2 :
  Forall2 (fun s t => NoDup s /\ Permutation s t /\ incl s ffs) os1 os2 ->
  forall e1 e2, eqe e1 e2 ->
  eqe (fold_left (fun e s => run_list B s e) os1 e1) (fold_left (fun e s => run_list B s e) os2 e2).
Proof. exact (ff_many_edges B ffs Hframe Hdep Hsw Hff os1 os2). Qed.
End C07.

(* the section hypotheses are satisfiable and the theorems say something: the register swap  a <<= b ; b <<= a
   (FFEdge.swapB: 0 = a, 1 = b, 2 = next(a), 3 = next(b), 4 = another register) swaps in both block orders *)
Open Scope nat_scope.
Example C07_swap_nonvacuous :
  (forall i, In i [0; 1] -> frame (swapB i)) /\
  (forall i, In i [0; 1] -> dep (swapB i)) /\
  single_writer swapB [0; 1] /\
  (forall i j v, In i [0; 1] -> In j [0; 1] -> i <> j -> wr (swapB i) v = true -> rd (swapB j) v = false) /\
  forall e, run_list swapB [0; 1] e 2 = e 1 /\ run_list swapB [0; 1] e 3 = e 0 /\
            run_list swapB [1; 0] e 2 = e 1 /\ run_list swapB [1; 0] e 3 = e 0 /\
            run_list swapB [1; 0] e 4 = e 4.
Proof. exact swap_nonvacuous. Qed.

Open Scope Z_scope.
(* on the model generated from PythonBits.py, where a Bits object is (nbits, _uint, _next): `<<=` stores into _next and
   leaves _uint alone; what it stores does not depend on the previous _next; _flip copies _next into _uint *)
Theorem C07_ilshift_invisible n u nx v r : wfn n -> owf v -> bits_ilshift n u nx v = Ok r ->
  fst (fst r) = n /\ snd (fst r) = u.
Proof.
  intros Hn Hv. rewrite (ilshift_ok n u nx Hn v Hv). unfold spec_ilshift.
  intros H. apply bind_ok in H. destruct H as [nx' [_ [= <-]]]. split; reflexivity.
Qed.
Theorem C07_last_wins n u nx nx' v : wfn n -> owf v -> bits_ilshift n u nx v = bits_ilshift n u nx' v.
Proof. intros Hn Hv. rewrite !(ilshift_ok n u _ Hn v Hv). reflexivity. Qed.
Theorem C07_flip n u nx : bits_flip n u nx = Ok (n, nx, nx).
Proof. exact (flip_ok n u nx). Qed.
Theorem C07_hold n u : bits_flip n u u = Ok (n, u, u).
Proof. exact (flip_ok n u u). Qed.

Example C07_nonvacuous : bits_ilshift 8 5 5 (OInt 9) = Ok (8, 5, 9) /\ bits_flip 8 5 9 = Ok (8, 9, 9).
Proof. vm_compute. split; reflexivity. Qed.

Print Assumptions C07_any_ff_order. Print Assumptions C07_every_block_sees_preedge_state.
Print Assumptions C07_ilshift_invisible. Print Assumptions C07_last_wins. Print Assumptions C07_flip. Print Assumptions C07_hold.
Print Assumptions C07_unassigned_holds. Print Assumptions C07_edge_is_function_of_preedge_state.
Print Assumptions C07_edge_determined_by_preedge_state. Print Assumptions C07_swap_nonvacuous. Print Assumptions C07_any_number_of_edges_any_orders.
