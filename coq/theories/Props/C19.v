(* Props/C19.v — property C19: round-robin arbiters grant exactly one requester, fairly.
   ONLY statements, each closed by `exact`/`apply` (the examples by computation); Print Assumptions for each at the end.
   The functions step / run / grants_of are the model of pymtl3/stdlib/basic_rtl/arbiters.py in
   Lib/Arbiter.v (the doubled-vector kill chain and the RegEnRst priority register, block by block);
   harness/c19.py checks on every run that the real RoundRobinArbiter / RoundRobinArbiterEn produce the
   same grants as `run` on exhaustive single steps and on random histories.
   isEn = false : RoundRobinArbiter,  isEn = true : RoundRobinArbiterEn.  n = nreqs (any n >= 2). *)
From PV Require Import Base.Prelude Lib.Arbiter Lib.ArbiterProofs.
(* generated-from-source instances proved equal to the hand model at small parameters: no name of that file is used
   below, the import puts it into the build closure of this one *)
From PV Require Import Props.C19_gen.
Local Open Scope nat_scope.

(* the invariant: the priority register is one-hot.  Reset establishes it from ANY register content
       (also from the all-zero content before the first reset) and gives priority to input 0 *)
Theorem C19_reset_restores_priority_0 n isEn st c :
  2 <= n -> c_rst c = true ->
  snd (step n isEn st c) = reset_state n /\ onehot n (reset_state n) /\ reset_state n = ptr_state n 0.
Proof. intros; apply reset_establishes; [lia|assumption]. Qed.

Theorem C19_onehot_preserved n isEn st c :
  2 <= n -> onehot n st -> onehot n (snd (step n isEn st c)).
Proof. intros; apply step_preserves_onehot; [lia|assumption]. Qed.

Theorem C19_onehot_preserved_history n isEn st h :
  2 <= n -> onehot n st -> onehot n (final_state n isEn st h).
Proof. intros; apply run_preserves_onehot; [lia|assumption]. Qed.

Theorem C19_onehot_is_pointer n st : onehot n st <-> exists p, p < n /\ st = ptr_state n p.
Proof. exact (onehot_ptr n st). Qed.

(* the kill chain computes the specification: first requester at or after the pointer, cyclically *)
Theorem C19_grants_are_spec n reqs p i :
  2 <= n -> p < n -> grants_of n reqs (ptr_state n p) i = spec_grants n reqs p i.
Proof. intros; apply grants_spec; lia. Qed.

Theorem C19_grants_zero_iff_no_request n reqs p :
  2 <= n -> p < n ->
  ((forall i, grants_of n reqs (ptr_state n p) i = false) <-> (forall i, i < n -> reqs i = false)).
Proof. intros; apply grants_zero_iff; lia. Qed.

Theorem C19_exactly_one_requesting_bit n reqs p :
  2 <= n -> p < n -> (exists i, i < n /\ reqs i = true) ->
  exists g, g < n /\ reqs g = true /\ spec_grant_index n reqs p = Some g /\
            forall i, grants_of n reqs (ptr_state n p) i = (i =? g).
Proof. intros; apply grants_one_hot; [lia|assumption|assumption]. Qed.

Theorem C19_grant_is_requesting n reqs p i :
  2 <= n -> p < n -> grants_of n reqs (ptr_state n p) i = true -> i < n /\ reqs i = true.
Proof. intros; apply (grants_subset_reqs n reqs p i); [lia|assumption|assumption]. Qed.

Theorem C19_at_most_one_grant n reqs p i j :
  2 <= n -> p < n ->
  grants_of n reqs (ptr_state n p) i = true -> grants_of n reqs (ptr_state n p) j = true -> i = j.
Proof. intros; apply (grants_at_most_one n reqs p i j); [lia|assumption|assumption|assumption]. Qed.

(* the same for every cycle of every request history (resets, enable toggling included) *)
Theorem C19_every_cycle_of_every_history n isEn st h t c :
  2 <= n -> onehot n st -> nth_error h t = Some c ->
  exists g q, nth_error (run n isEn st h) t = Some g /\ length g = n /\
    q < n /\ final_state n isEn st (firstn t h) = ptr_state n q /\
    g = to_list n (spec_grants n (c_reqs c) q) /\
    ((forall i, i < n -> c_reqs c i = false) -> forall i, nth i g false = false) /\
    ((exists i, i < n /\ c_reqs c i = true) ->
       exists w, w < n /\ c_reqs c w = true /\ spec_grant_index n (c_reqs c) q = Some w /\
                 forall i, nth i g false = (i =? w)).
Proof. intros; apply every_cycle; [lia|assumption|assumption]. Qed.

Theorem C19_history_refines_spec n isEn h p :
  2 <= n -> p < n -> run n isEn (ptr_state n p) h = spec_run n isEn p h.
Proof. intros; apply run_refines; [lia|assumption]. Qed.

(* priority rotates to the input after the granted one when it advances, else stays *)
(* (onehot n st is not used: the wiring is a rotation whatever the register holds) *)
Theorem C19_next_priority_is_rotl_of_grants n isEn st c :
  2 <= n -> onehot n st -> c_rst c = false ->
  let g := fst (step n isEn st c) in
  let st' := snd (step n isEn st c) in
  if nonzero n (of_list g) && advances isEn c
  then st' = to_list n (rotl n (of_list g))
  else st' = st.
Proof. intros H1 _ H3; apply next_priority; [lia|assumption]. Qed.

Theorem C19_pointer_moves_past_granted n isEn p c g :
  2 <= n -> p < n -> c_rst c = false -> spec_grant_index n (c_reqs c) p = Some g ->
  snd (step n isEn (ptr_state n p) c) = ptr_state n (if advances isEn c then (g + 1) mod n else p).
Proof. intros; apply next_pointer; [lia|assumption|assumption|assumption]. Qed.

Theorem C19_no_request_keeps_priority n isEn st c :
  2 <= n -> onehot n st -> c_rst c = false -> (forall i, i < n -> c_reqs c i = false) ->
  snd (step n isEn st c) = st.
Proof. intros; apply no_grant_keeps_priority; [lia|assumption|assumption|assumption]. Qed.

(* enabled variant: priority advances only in cycles with enable high *)
Theorem C19_en_low_keeps_priority n st c :
  c_rst c = false -> c_en c = false -> snd (step n true st c) = st.
Proof. exact (en_low_keeps_priority n st c). Qed.

(* hence a cycle with the enable low is invisible to every later cycle: whatever it requested or granted *)
Theorem C19_en_low_cycle_is_invisible n st c h :
  c_rst c = false -> c_en c = false ->
  run n true (snd (step n true st c)) h = run n true st h.
Proof. exact (en_low_invisible n st c h). Qed.

Theorem C19_plain_is_en_tied_high n st rst en reqs :
  step n false st (rst, en, reqs) = step n true st (rst, true, reqs).
Proof. exact (plain_is_en_high n st rst en reqs). Qed.

(* fairness: decreasing measure, then the bound *)
Theorem C19_fair_measure n isEn p c i :
  2 <= n -> p < n -> i < n -> c_rst c = false -> c_reqs c i = true ->
  let p' := spec_next_ptr n isEn p c in
  spec_grants n (c_reqs c) p i = true \/
  (spec_grants n (c_reqs c) p i = false /\
   if advances isEn c then dist n p' i < dist n p i else p' = p).
Proof. intros H1 H2 H3 H4 H5; apply fair_measure; [lia|assumption..]. Qed.

Theorem C19_fairness n isEn st h i :
  2 <= n -> onehot n st -> i < n -> keeps_requesting i h ->
  n <= count_adv isEn h ->
  granted_within n isEn st h i n.
Proof. intros; apply fairness; [lia|assumption..]. Qed.

Theorem C19_fairness_plain n st h i :
  2 <= n -> onehot n st -> i < n -> keeps_requesting i h -> n <= length h ->
  exists t g, t < n /\ nth_error (run n false st h) t = Some g /\ nth i g false = true.
Proof. intros; apply fairness_plain; [lia|assumption..]. Qed.

(* the input granted last has the least priority: pointer just past i => i wins only when alone;
       and on the code's machine, no input is granted in two consecutive advancing cycles while another requests *)
Theorem C19_last_granted_has_least_priority n reqs i j :
  2 <= n -> i < n -> j < n -> j <> i -> reqs j = true ->
  spec_grants n reqs ((i + 1) mod n) i = false.
Proof. intros; apply (last_granted_least_priority n reqs i j); [lia|assumption..]. Qed.

Theorem C19_no_back_to_back_grant n isEn p c c' g j :
  2 <= n -> p < n -> c_rst c = false -> advances isEn c = true ->
  spec_grant_index n (c_reqs c) p = Some g ->
  j < n -> j <> g -> c_reqs c' j = true ->
  nth g (fst (step n isEn (snd (step n isEn (ptr_state n p) c)) c')) false = false.
Proof. intros; apply (no_back_to_back_grant n isEn p c c' g j); [lia|assumption..]. Qed.

Example no_back_to_back_nonvacuous :
  (* nreqs = 3, pointer at 1, inputs 1 and 2 request: 1 wins; next cycle 1 and 0 request: 0 wins, not 1 *)
  let c  : cyc := (false, true, bv_of_Z 6) in
  let c' : cyc := (false, true, bv_of_Z 3) in
  spec_grant_index 3 (c_reqs c) 1 = Some 1 /\
  fst (step 3 true (snd (step 3 true (ptr_state 3 1) c)) c') = [true; false; false].
Proof. vm_compute. split; reflexivity. Qed.


(* what a passing correspondence case of harness/c19.py establishes *)
Theorem C19_replay_ok_sound isEn n h obs :
  2 <= n -> replay_ok (isEn, false, n, h, obs) = true ->
  obs = map Z_of_list (spec_run n isEn 0 (map cyc_of_z h)).
Proof. intros; apply replay_ok_sound; [lia|assumption]. Qed.

(* non-vacuity: the hypotheses are satisfiable and the model computes.
   nreqs = 3, RoundRobinArbiterEn, input 2 requests all the time, enable toggles: the cold register is
   not one-hot and grants nothing; after reset the pointer is at 0; input 2 is granted in the third
   advancing cycle. *)
Definition nv_hist : list zcyc :=
  [(false, true, 7%Z); (false, false, 7%Z); (false, true, 6%Z); (false, true, 5%Z); (false, true, 4%Z)].

Example C19_nonvacuous :
  onehot 3 (reset_state 3) /\
  keeps_requesting 2 (map cyc_of_z nv_hist) /\
  3 <= count_adv true (map cyc_of_z nv_hist) /\
  replay 3 true false nv_hist = [1; 2; 2; 4; 4]%Z /\
  replay 3 false false nv_hist = [1; 2; 4; 1; 4]%Z /\
  replay 3 true true ((true, true, 7%Z) :: nv_hist) = [0; 1; 2; 2; 4; 4]%Z /\
  granted_within 3 true (reset_state 3) (map cyc_of_z nv_hist) 2 3.
Proof.
  assert (onehot 3 (reset_state 3)) as H1 by (apply onehot_ptr; exists 0; split; [lia|reflexivity]).
  assert (keeps_requesting 2 (map cyc_of_z nv_hist)) as H2.
  { intros c Hc. cbn in Hc. repeat (destruct Hc as [<-|Hc]; [split; reflexivity|]). destruct Hc. }
  assert (3 <= count_adv true (map cyc_of_z nv_hist)) as H3 by (vm_compute; lia).
  split; [exact H1|]. split; [exact H2|]. split; [exact H3|].
  split; [vm_compute; reflexivity|]. split; [vm_compute; reflexivity|]. split; [vm_compute; reflexivity|].
  apply fairness; [lia|exact H1|lia|exact H2|exact H3].
Qed.

Print Assumptions C19_reset_restores_priority_0. Print Assumptions C19_onehot_preserved.
Print Assumptions C19_onehot_preserved_history. Print Assumptions C19_onehot_is_pointer.
Print Assumptions C19_grants_are_spec. Print Assumptions C19_grants_zero_iff_no_request.
Print Assumptions C19_exactly_one_requesting_bit. Print Assumptions C19_grant_is_requesting.
Print Assumptions C19_at_most_one_grant. Print Assumptions C19_every_cycle_of_every_history.
Print Assumptions C19_history_refines_spec. Print Assumptions C19_next_priority_is_rotl_of_grants.
Print Assumptions C19_pointer_moves_past_granted. Print Assumptions C19_no_request_keeps_priority.
Print Assumptions C19_en_low_keeps_priority. Print Assumptions C19_plain_is_en_tied_high.
Print Assumptions C19_fair_measure. Print Assumptions C19_fairness. Print Assumptions C19_fairness_plain.
Print Assumptions C19_replay_ok_sound. Print Assumptions C19_nonvacuous.
Print Assumptions C19_last_granted_has_least_priority. Print Assumptions C19_no_back_to_back_grant.
Print Assumptions no_back_to_back_nonvacuous. Print Assumptions C19_en_low_cycle_is_invisible.
