(* Props/C06.v — property C06: bitstruct packing is a lossless, order-preserving bijection.
   ONLY statements, each closed by `exact`/`apply`, each followed by Print Assumptions.

   shape  = SBits n | SStruct fields | SList len elt      (Struct/Shape.v)
   pack   = the integer of to_bits(), unpack = the value built by from_bits()   (Struct/Layout.v)
   The correspondence run (harness/c06.py) checks on every run that the text pymtl3 GENERATES for
   to_bits / from_bits of each shape passes check_to_bits / check_from_bits, and the theorems
   C06_to_bits_text / C06_from_bits_text turn such a pass into "for ALL values of that shape". *)
From PV Require Import Base.Prelude Struct.Shape Struct.Layout Struct.LayoutProofs.
Open Scope Z_scope.

(* ---- total width = sum of the leaf widths; the packed value fits in it ---- *)
Theorem C06_width_is_sum_of_leaf_widths T : width T = sumz (leaf_widths T).
Proof. exact (width_sum T). Qed.
Theorem C06_pack_in_range T v : wf T = true -> typed T v = true -> 0 <= pack T v < 2 ^ (width T).
Proof. exact (pack_range T v). Qed.

(* ---- lossless both ways ---- *)
Theorem C06_from_bits_to_bits T v : wf T = true -> typed T v = true -> unpack T (pack T v) = v.
Proof. exact (unpack_pack T v). Qed.
Theorem C06_to_bits_from_bits T b : wf T = true -> 0 <= b < 2 ^ (width T) -> pack T (unpack T b) = b.
Proof. exact (pack_unpack T b). Qed.
Theorem C06_from_bits_well_typed T b : wf T = true -> typed T (unpack T b) = true.
Proof. exact (unpack_typed T b). Qed.

(* ---- the layout: first field most significant, list element 0 least significant ---- *)
Theorem C06_first_field_most_significant f fr x xr :
  pack (SStruct (f :: fr)) (VStruct (x :: xr)) = pack f x * 2 ^ (width (SStruct fr)) + pack (SStruct fr) (VStruct xr).
Proof. exact (pack_struct_cons f fr x xr). Qed.
Theorem C06_element0_least_significant k e x xr :
  pack (SList (S k) e) (VList (x :: xr)) = pack e x + 2 ^ (width e) * pack (SList k e) (VList xr).
Proof. exact (pack_list_cons k e x xr). Qed.
(* leaf_ranges T lists the leaves from bit width-1 down to bit 0 without gap or overlap *)
Theorem C06_ranges_chain T : wf T = true -> chain (width T) (leaf_ranges T) 0.
Proof. exact (leaf_ranges_chain T). Qed.
Theorem C06_ranges_within T r : wf T = true -> In r (leaf_ranges T) -> 0 <= rlo r /\ rlo r < rhi r /\ rhi r <= width T.
Proof. exact (leaf_ranges_bounds T r). Qed.
Theorem C06_ranges_cover T i : wf T = true -> 0 <= i < width T -> exists r, In r (leaf_ranges T) /\ rlo r <= i < rhi r.
Proof. exact (leaf_ranges_cover T i). Qed.
Theorem C06_ranges_disjoint T r1 r2 i : wf T = true -> In r1 (leaf_ranges T) -> In r2 (leaf_ranges T) ->
  rlo r1 <= i < rhi r1 -> rlo r2 <= i < rhi r2 -> r1 = r2.
Proof. exact (leaf_ranges_disjoint T r1 r2 i). Qed.
(* order at any depth: at the first step where two leaf paths differ, the earlier field / the later list element is above *)
Theorem C06_ranges_order T r1 r2 : wf T = true -> In r1 (leaf_ranges T) -> In r2 (leaf_ranges T) ->
  above (rpath r1) (rpath r2) -> rhi r2 <= rlo r1.
Proof. exact (leaf_ranges_order T r1 r2). Qed.
(* to_bits places every leaf exactly on its range, bit for bit, and nothing above the width *)
Theorem C06_pack_places_leaf T v r : wf T = true -> typed T v = true -> In r (leaf_ranges T) ->
  exists u, leaf_at v (rpath r) = Some u /\ 0 <= u < 2 ^ (rhi r - rlo r) /\
            forall i, rlo r <= i < rhi r -> Z.testbit (pack T v) i = Z.testbit u (i - rlo r).
Proof. exact (pack_testbit T v r). Qed.
Theorem C06_leaf_is_bits_of_range_width T v r : wf T = true -> typed T v = true -> In r (leaf_ranges T) ->
  shape_at T (rpath r) = Some (SBits (rhi r - rlo r)) /\ leaf_at v (rpath r) = Some (slice (pack T v) (rlo r) (rhi r)).
Proof. exact (pack_places_leaf T v r). Qed.
Theorem C06_pack_high_zero T v i : wf T = true -> typed T v = true -> width T <= i -> Z.testbit (pack T v) i = false.
Proof. exact (pack_high_zero T v i). Qed.

(* ---- the generated method texts (checked per shape on every run) compute pack / unpack for ALL values ---- *)
Theorem C06_to_bits_text T ps v : wf T = true -> typed T v = true -> check_to_bits T ps = true ->
  concat_model (concat_args T v ps) = (width T, pack T v).
Proof. exact (to_bits_text_correct T ps v). Qed.
Theorem C06_from_bits_text T t b : wf T = true -> check_from_bits T t = true -> eval_rtree t b = unpack T b.
Proof. exact (from_bits_text_correct T t b). Qed.
Theorem C06_slice_tree_is_leaf_ranges T : rtree_ranges (range_tree T 0) = leaf_ranges T.
Proof. exact (rtree_ranges_range_tree T 0). Qed.

(* ---- equality and hashing agree with the packed value ---- *)
Theorem C06_eq_iff_pack T v w : wf T = true -> typed T v = true -> typed T w = true -> (v = w <-> pack T v = pack T w).
Proof. exact (eq_iff_pack T v w). Qed.
Theorem C06_fieldwise_eq_is_packed_eq T v w : wf T = true -> typed T v = true -> typed T w = true ->
  veqb v w = (pack T v =? pack T w).
Proof. exact (veqb_pack T v w). Qed.
Theorem C06_hash_respects_eq hleaf htuple T v w : wf T = true -> typed T v = true -> typed T w = true ->
  pack T v = pack T w -> vhash hleaf htuple T v = vhash hleaf htuple T w.
Proof. exact (hash_respects_eq hleaf htuple T v w). Qed.
Theorem C06_hash_is_function_of_packed hleaf htuple T : wf T = true ->
  exists H : Z -> Z, forall v, typed T v = true -> vhash hleaf htuple T v = H (pack T v).
Proof. exact (hash_of_packed hleaf htuple T). Qed.

(* ---- clone / deepcopy: equal value, entirely new cells and interior objects, independent afterwards ---- *)
Theorem C06_clone_eq_fresh o st : owned st o ->
  let c := fst (clone o st) in let st' := snd (clone o st) in
  read st' c = read st o /\ read st' o = read st o /\
  (forall k, In k (locs c) -> ~ In k (locs o)) /\ NoDup (locs c) /\ owned st' c /\ owned st' o /\
  (forall o', owned st o' -> read st' o' = read st o').
Proof. exact (clone_spec o st). Qed.
Theorem C06_clone_independent o st p u : owned st o ->
  let c := fst (clone o st) in let st' := snd (clone o st) in
  read (poke c p u st') o = read st o /\ read (poke o p u st') c = read st o.
Proof. exact (clone_independent o st p u). Qed.

(* ---- @= copies leaf by leaf, visible immediately, shares nothing with the source ---- *)
Theorem C06_imatmul_copies dst src st : osame dst src = true -> NoDup (leaves dst) -> disjoint (leaves dst) (leaves src) ->
  let st' := imatmul dst src st in
  read st' dst = read st src /\ read st' src = read st src /\
  (forall o, disjoint (leaves dst) (leaves o) -> read st' o = read st o) /\
  (forall p u, read (poke src p u st') dst = read st' dst) /\
  (forall p u, read (poke dst p u st') src = read st' src).
Proof. exact (imatmul_copies dst src st). Qed.

(* ---- <<= is invisible until _flip; the flip delivers the value the source had at the time of <<= ---- *)
Theorem C06_ilshift_defers dst src st : osame dst src = true -> NoDup (leaves dst) ->
  let st1 := ilshift dst src st in
  (forall o, read st1 o = read st o) /\
  (forall st2, (forall k, nxtv st2 k = nxtv st1 k) -> read (flip dst st2) dst = read st src) /\
  (forall o, disjoint (leaves dst) (leaves o) -> read (flip dst st1) o = read st o).
Proof. exact (ilshift_defers dst src st). Qed.
Theorem C06_ilshift_flip dst src st : osame dst src = true -> NoDup (leaves dst) ->
  read (flip dst (ilshift dst src st)) dst = read st src.
Proof. exact (ilshift_flip dst src st). Qed.
Theorem C06_ilshift_snapshot dst src st p u : osame dst src = true -> NoDup (leaves dst) ->
  read (flip dst (poke src p u (ilshift dst src st))) dst = read st src.
Proof. exact (ilshift_snapshot dst src st p u). Qed.
(* the hypotheses above hold for any two objects built (constructor / from_bits) for values of one type *)
Theorem C06_built_objects_are_separate T va vb st : typed T va = true -> typed T vb = true ->
  let a := fst (alloc va st) in let st1 := snd (alloc va st) in
  let b := fst (alloc vb st1) in let st2 := snd (alloc vb st1) in
  osame a b = true /\ NoDup (leaves a) /\ NoDup (leaves b) /\ disjoint (leaves a) (leaves b) /\
  read st2 a = va /\ read st2 b = vb.
Proof. exact (alloc_pair_separate T va vb st). Qed.

(* ---- non-vacuity: a nested shape with a 3x2 list, a reused nested struct, a list of structs ---- *)
Definition ex_in : shape := SStruct [SBits 4; SBits 4].
Definition ex_T : shape := SStruct [SBits 8; SList 3 (SList 2 (SBits 4)); ex_in; SList 2 ex_in; SBits 1].
Definition ex_v : value :=
  VStruct [VBits 0xAB; VList [VList [VBits 1; VBits 2]; VList [VBits 3; VBits 4]; VList [VBits 5; VBits 6]];
           VStruct [VBits 7; VBits 8]; VList [VStruct [VBits 9; VBits 10]; VStruct [VBits 11; VBits 12]]; VBits 1].
Example C06_nonvacuous :
  wf ex_T = true /\ typed ex_T ex_v = true /\ width ex_T = 57 /\ pack ex_T ex_v = 0x156ca8642f17935 /\
  check_to_bits ex_T (map rpath (leaf_ranges ex_T)) = true /\ check_from_bits ex_T (range_tree ex_T 0) = true /\
  existsb (rng_eqb ([Fld 1; Idx 0; Idx 0], 25, 29)) (leaf_ranges ex_T) = true /\
  existsb (rng_eqb ([Fld 1; Idx 2; Idx 1], 45, 49)) (leaf_ranges ex_T) = true /\
  above [Fld 1; Idx 2; Idx 1] [Fld 1; Idx 0; Idx 0] /\ above [Fld 0] [Fld 4].
Proof. repeat split; try (vm_compute; reflexivity); cbn; lia. Qed.
Example C06_nonvacuous_1023 : wf (SStruct [SBits 1000; SList 23 (SBits 1)]) = true /\ width (SStruct [SBits 1000; SList 23 (SBits 1)]) = 1023.
Proof. vm_compute. split; reflexivity. Qed.
Example C06_nonvacuous_store :
  let '(a, st1) := alloc ex_v empty_store in owned st1 a /\
  (let '(b, a') := run_scenario ScIlshiftPokeFlip (unpack ex_T 0) ex_v true [Fld 0] 1 in (pack ex_T b, pack ex_T a'))
  = (0x2ca8642f17935, 0x156ca8642f17935).
Proof. vm_compute. split; [intros k Hk; lia|reflexivity]. Qed.

Print Assumptions C06_width_is_sum_of_leaf_widths. Print Assumptions C06_pack_in_range.
Print Assumptions C06_from_bits_to_bits. Print Assumptions C06_to_bits_from_bits. Print Assumptions C06_from_bits_well_typed.
Print Assumptions C06_first_field_most_significant. Print Assumptions C06_element0_least_significant.
Print Assumptions C06_ranges_chain. Print Assumptions C06_ranges_within. Print Assumptions C06_ranges_cover.
Print Assumptions C06_ranges_disjoint. Print Assumptions C06_ranges_order.
Print Assumptions C06_pack_places_leaf. Print Assumptions C06_leaf_is_bits_of_range_width. Print Assumptions C06_pack_high_zero.
Print Assumptions C06_to_bits_text. Print Assumptions C06_from_bits_text. Print Assumptions C06_slice_tree_is_leaf_ranges.
Print Assumptions C06_eq_iff_pack. Print Assumptions C06_fieldwise_eq_is_packed_eq.
Print Assumptions C06_hash_respects_eq. Print Assumptions C06_hash_is_function_of_packed.
Print Assumptions C06_clone_eq_fresh. Print Assumptions C06_clone_independent.
Print Assumptions C06_imatmul_copies. Print Assumptions C06_ilshift_defers. Print Assumptions C06_ilshift_flip.
Print Assumptions C06_ilshift_snapshot. Print Assumptions C06_built_objects_are_separate.
