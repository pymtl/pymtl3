(* Props/C18.v — property C18: magic memories act as one in-order memory whatever the timing parameters.
   ONLY statements at full strength, each closed by `exact`/`apply` of a theorem of Lib/MemProofs.v; the non-vacuity
   examples are closed by evaluation; the Print Assumptions stand at the end of the file.

   Model: Lib/Mem.v (bytes, little-endian read/write, nine AMOs, MemMsg request decoding as in up_mem,
   sequential spec, history acceptor) and Lib/MemPipe.v (per-port stall -> request pipe -> service ->
   response pipe under an ARBITRARY oracle = list of atomic actions; one clock cycle of MagicMemoryCL is
   one such list).  Data widths are PER PORT: `W : nat -> Z` gives the message data width in bytes of each port
   (ports of one memory may carry different message types); a processed request carries its port's width
   (`wreq = Z * req`), and len = 0 means the width of the port the request arrived on. *)
From PV Require Import Base.Prelude Lib.Mem Lib.MemPipe Lib.MemProofs.
Open Scope Z_scope.

Theorem C18_read_write_same n m a d : read_n (write_n m a n d) a n = d mod 256 ^ Z.of_nat n.
Proof. exact (read_write_same n m a d). Qed.

Theorem C18_read_write_other m a n b k d :
  a + Z.of_nat n <= b \/ b + Z.of_nat k <= a -> read_n (write_n m b k d) a n = read_n m a n.
Proof. exact (read_write_other m a n b k d). Qed.

Theorem C18_write_frame m a n d x : x < a \/ a + Z.of_nat n <= x -> write_n m a n d x = m x.
Proof. exact (write_frame m a n d x). Qed.

(* overlapping, differently sized accesses: byte j of a read after a write *)
Theorem C18_read_after_write_bytewise m a n b k d j :
  wf m -> 0 <= j < Z.of_nat n ->
  byte_k (read_n (write_n m b k d) a n) j =
    if (b <=? a + j) && (a + j <? b + Z.of_nat k) then byte_k d (a + j - b) else m (a + j).
Proof. exact (read_after_write_bytewise m a n b k d j). Qed.

(* over a whole processed sequence: a read returns, per byte, what the most recent earlier-processed
   write/AMO covering that byte stored there (or the initial byte when none did) *)
Theorem C18_read_returns_most_recent_write W l1 (w : wreq) l2 rd m0 k b :
  wf m0 -> q_type rd = TRead -> 0 <= k < Z.of_nat (eff_len W rd) ->
  stores (fst w) (snd w) (mem_after l1 m0) (q_addr rd + k) = Some b ->
  Forall (no_write (q_addr rd + k)) l2 ->
  byte_k (p_data (resp_of W rd (mem_after (l1 ++ w :: l2) m0))) k = b.
Proof. exact (read_returns_most_recent_write W l1 w l2 rd m0 k b). Qed.

Theorem C18_read_returns_initial_if_never_written W l rd m0 k :
  wf m0 -> q_type rd = TRead -> 0 <= k < Z.of_nat (eff_len W rd) ->
  Forall (no_write (q_addr rd + k)) l ->
  byte_k (p_data (resp_of W rd (mem_after l m0))) k = m0 (q_addr rd + k).
Proof. exact (read_returns_initial_if_never_written W l rd m0 k). Qed.

Theorem C18_amo_returns_most_recent_write W l1 (w : wreq) l2 rd op m0 k b :
  wf m0 -> q_type rd = TAmo op -> 0 <= k < Z.of_nat (eff_len W rd) ->
  stores (fst w) (snd w) (mem_after l1 m0) (q_addr rd + k) = Some b ->
  Forall (no_write (q_addr rd + k)) l2 ->
  byte_k (p_data (resp_of W rd (mem_after (l1 ++ w :: l2) m0))) k = b.
Proof. exact (amo_returns_most_recent_write W l1 w l2 rd op m0 k b). Qed.

Theorem C18_final_byte_is_most_recent_write l1 (w : wreq) l2 m0 x b :
  stores (fst w) (snd w) (mem_after l1 m0) x = Some b ->
  Forall (no_write x) l2 ->
  mem_after (l1 ++ w :: l2) m0 x = b.
Proof. exact (byte_is_most_recent_write l1 w l2 m0 x b). Qed.

Theorem C18_amo_returns_old_stores_result op m a n d :
  wf m ->
  let w := 8 * Z.of_nat n in
  let old := read_n m a n in
  let '(ret, m') := amo_n op m a n d in
  ret = old /\
  read_n m' a n = amo_fun op w old (d mod 2 ^ w) /\
  (forall x, x < a \/ a + Z.of_nat n <= x -> m' x = m x) /\
  wf m'.
Proof. exact (amo_returns_old_stores_result op m a n d). Qed.

Theorem C18_amo_request W r m op :
  wf m -> q_type r = TAmo op ->
  let n := eff_len W r in let w := 8 * Z.of_nat n in let old := read_n m (q_addr r) n in
  p_data (resp_of W r m) = old /\
  read_n (mem_step W r m) (q_addr r) n = amo_fun op w old (q_data r mod 2 ^ w).
Proof. exact (amo_request W r m op). Qed.

Theorem C18_amo_min_signed w m a : sint w (amo_fun AMin w m a) = Z.min (sint w m) (sint w a).
Proof. exact (amo_min_signed w m a). Qed.
Theorem C18_amo_max_signed w m a : sint w (amo_fun AMax w m a) = Z.max (sint w m) (sint w a).
Proof. exact (amo_max_signed w m a). Qed.
Theorem C18_amo_minu_unsigned w m a : amo_fun AMinu w m a = Z.min m a.
Proof. exact (amo_minu_unsigned w m a). Qed.
Theorem C18_amo_maxu_unsigned w m a : amo_fun AMaxu w m a = Z.max m a.
Proof. exact (amo_maxu_unsigned w m a). Qed.
Theorem C18_sint_twos_complement w u :
  0 < w -> 0 <= u < 2 ^ w -> - 2 ^ (w - 1) <= sint w u < 2 ^ (w - 1) /\ sint w u mod 2 ^ w = u.
Proof. intros; split; [apply sint_range|apply sint_mod]; assumption. Qed.
Theorem C18_amo_result_fits op w m a :
  0 <= w -> 0 <= m < 2 ^ w -> 0 <= a < 2 ^ w -> 0 <= amo_fun op w m a < 2 ^ w.
Proof. exact (amo_fun_range op w m a). Qed.

Theorem C18_response_echoes_request W r m : echo (resp_of W r m) r.
Proof. exact (resp_of_echo W r m). Qed.
Theorem C18_write_request W r m :
  q_type r = TWrite ->
  read_n (mem_step W r m) (q_addr r) (eff_len W r) = q_data r mod 256 ^ Z.of_nat (eff_len W r).
Proof. exact (write_request W r m). Qed.
Theorem C18_request_frame W r m x : writes_at W r x = false -> mem_step W r m x = m x.
Proof. exact (request_frame W r m x). Qed.

Theorem C18_delay_pipe_order {A} (ops : list pipe_op) (src : list A) l dst :
  let '(src', l', dst') := fold_left pipe_step ops (src, l, dst) in
  dst' ++ inflight l' ++ src' = dst ++ inflight l ++ src /\ length l' = length l.
Proof. exact (delay_pipe_order ops src l dst). Qed.

(* the pipelines, for ALL port counts
   (ports : nat -> ...), ALL latencies (qlat, rlat : nat -> nat), ALL oracles (sched : list action) *)
Theorem C18_service_in_request_order W reqs qlat rlat m0 sched p :
  let s := exec W (init reqs qlat rlat m0) sched in
  exists rest, reqs p = on_port p (slog s) ++ rest.
Proof. exact (proj1 (model_history_ok W reqs qlat rlat m0 sched) p). Qed.

Theorem C18_responses_are_spec_prefix W reqs qlat rlat m0 sched p :
  let s := exec W (init reqs qlat rlat m0) sched in
  exists rest, on_port p (tresps W (slog s) m0) = delivered s p ++ rest.
Proof. exact (proj1 (proj2 (model_history_ok W reqs qlat rlat m0 sched)) p). Qed.

Theorem C18_responses_echo_requests W reqs qlat rlat m0 sched p :
  let s := exec W (init reqs qlat rlat m0) sched in
  exists rs rest, reqs p = rs ++ rest /\ Forall2 echo (delivered s p) rs.
Proof. exact (responses_echo_requests W reqs m0 _ p (pipeline_invariant W reqs qlat rlat m0 sched)). Qed.

Theorem C18_memory_is_fold_of_log W reqs qlat rlat m0 sched :
  let s := exec W (init reqs qlat rlat m0) sched in
  smem s = mem_after (widths W (slog s)) m0.
Proof. exact (proj2 (proj2 (model_history_ok W reqs qlat rlat m0 sched))). Qed.

Theorem C18_drained_port_complete W reqs qlat rlat m0 sched p :
  let s := exec W (init reqs qlat rlat m0) sched in
  drained s p -> on_port p (slog s) = reqs p /\ delivered s p = on_port p (tresps W (slog s) m0).
Proof. exact (drained_port_complete W reqs m0 _ p (pipeline_invariant W reqs qlat rlat m0 sched)). Qed.

Theorem C18_timing_irrelevant W m0 reqs1 ql1 rl1 sched1 reqs2 ql2 rl2 sched2 :
  let s1 := exec W (init reqs1 ql1 rl1 m0) sched1 in
  let s2 := exec W (init reqs2 ql2 rl2 m0) sched2 in
  slog s1 = slog s2 ->
  smem s1 = smem s2 /\
  forall p, delivered s1 p ++ resp_inflight s1 p = delivered s2 p ++ resp_inflight s2 p.
Proof. exact (timing_irrelevant W m0 reqs1 ql1 rl1 sched1 reqs2 ql2 rl2 sched2). Qed.

Theorem C18_timing_irrelevant_drained W m0 reqs1 ql1 rl1 sched1 reqs2 ql2 rl2 sched2 p :
  let s1 := exec W (init reqs1 ql1 rl1 m0) sched1 in
  let s2 := exec W (init reqs2 ql2 rl2 m0) sched2 in
  slog s1 = slog s2 -> resp_inflight s1 p = [] -> resp_inflight s2 p = [] ->
  delivered s1 p = delivered s2 p.
Proof. exact (timing_irrelevant_drained W m0 reqs1 ql1 rl1 sched1 reqs2 ql2 rl2 sched2 p). Qed.

(* by cycles: any number of MagicMemoryCL clock cycles with arbitrary accept / sink-ready bits *)
Theorem C18_cycles_invariant W nports reqs qlat rlat m0 cs :
  let s := run_cycles W nports (init reqs qlat rlat m0) cs in
  (forall p, reqs p = on_port p (slog s) ++ req_inflight s p ++ pending (ports s p)) /\
  (forall p, on_port p (tresps W (slog s) m0) = delivered s p ++ resp_inflight s p) /\
  smem s = tmem_after W (slog s) m0.
Proof. exact (cycles_invariant W nports reqs qlat rlat m0 cs). Qed.

(* one port: the timing cannot change anything at all *)
Theorem C18_single_port_deterministic W reqs qlat rlat m0 sched :
  (forall q, q <> 0%nat -> reqs q = []) ->
  let s := exec W (init reqs qlat rlat m0) sched in
  exists done rest more,
    reqs 0%nat = done ++ rest /\
    untag (slog s) = done /\
    resps (uniform (W 0%nat) done) m0 = delivered s 0%nat ++ more /\
    smem s = mem_after (uniform (W 0%nat) done) m0.
Proof. exact (single_port_deterministic W reqs m0 _ (pipeline_invariant W reqs qlat rlat m0 sched)). Qed.

(* the acceptor run on the real memory's histories *)
Theorem C18_check_history_sound Ws init reqs order out img complete l :
  check_history Ws init reqs order out img complete l = true ->
  history_ok Ws init reqs order out img complete l.
Proof. exact (check_history_sound Ws init reqs order out img complete l). Qed.

Theorem C18_accepted_history_echo Ws init reqs order out img complete l p rs os :
  check_history Ws init reqs order out img complete l = true ->
  nth_error reqs p = Some rs -> nth_error out p = Some os ->
  exists rs1 rest, rs = rs1 ++ rest /\ Forall2 echo os rs1.
Proof. exact (accepted_history_echo Ws init reqs order out img complete l p rs os). Qed.

(* two ports on overlapping bytes — port 0: word write, AMO add, 2-byte read; port 1: 3-byte write straddling a word
   boundary, 8-byte AMO minu, full-width read — with request pipes of 2 slots, response pipes of 1 and 2 slots and an
   interleaved oracle: everything is serviced, the log interleaves the ports, the image is the fold *)
Definition ex_reqs (p : nat) : list req :=
  match p with
  | 0%nat => [mkReq TWrite 1 16 0 0x01020304; mkReq (TAmo AAdd) 2 16 0 0xff; mkReq TRead 3 17 2 0]
  | 1%nat => [mkReq TWrite 7 18 3 0xaabbcc; mkReq (TAmo AMinu) 8 16 0 5; mkReq TRead 9 20 0 0]
  | _ => []
  end.
Definition ex_cyc : cyc := mkCyc (fun _ => true) (fun _ => true).
(* port 0 carries 32-bit data, port 1 64-bit data: its full-width AMO covers 8 bytes *)
Definition ex_W (p : nat) : Z := match p with 0%nat => 4 | _ => 8 end.
Definition ex_final := run_cycles ex_W 2 (init ex_reqs (fun _ => 2%nat) (fun p => S p) mem0) (repeat ex_cyc 14).
Example C18_nonvacuous_run :
  map fst (slog ex_final) = [0; 1; 0; 1; 0; 1]%nat /\
  drained ex_final 0 /\ drained ex_final 1 /\
  map p_data (delivered ex_final 0) = [0; 0xbbcc0304; 0] /\
  map p_data (delivered ex_final 1) = [0; 0xaabbcc0403; 0] /\
  read_n (smem ex_final) 16 9 = 5.
Proof. vm_compute. repeat split; reflexivity. Qed.

Example C18_nonvacuous_acceptor :
  check_history [4; 2] [(20, 9)]
    [[mkReq TWrite 1 16 2 0xdead1234; mkReq TRead 2 16 0 0]; [mkReq (TAmo AMaxu) 5 16 0 0x77]]
    [(0%nat, CWrite 16 2 0x1234); (1%nat, CAmo 10 16 2 0x77); (0%nat, CRead 16 4)]
    [[mkResp TWrite 1 0 0 0; mkResp TRead 2 0 0 0x1234]; [mkResp (TAmo AMaxu) 5 0 0 0x1234]]
    [(16, 0x34); (17, 0x12); (18, 0); (20, 9)] true
    [(0%nat, mkReq TWrite 1 16 2 0xdead1234); (1%nat, mkReq (TAmo AMaxu) 5 16 0 0x77); (0%nat, mkReq TRead 2 16 0 0)]
  = true.
Proof. vm_compute. reflexivity. Qed.

(* signed minimum really is signed: 0xff (= -1 on 8 bits) beats 0x01 *)
Example C18_nonvacuous_signed : amo_fun AMin 8 0xff 0x01 = 0xff /\ amo_fun AMinu 8 0xff 0x01 = 0x01.
Proof. vm_compute. split; reflexivity. Qed.

Print Assumptions C18_read_write_same. Print Assumptions C18_read_write_other. Print Assumptions C18_write_frame.
Print Assumptions C18_read_after_write_bytewise. Print Assumptions C18_read_returns_most_recent_write.
Print Assumptions C18_read_returns_initial_if_never_written. Print Assumptions C18_amo_returns_most_recent_write.
Print Assumptions C18_final_byte_is_most_recent_write.
Print Assumptions C18_amo_returns_old_stores_result. Print Assumptions C18_amo_request.
Print Assumptions C18_amo_min_signed. Print Assumptions C18_amo_max_signed.
Print Assumptions C18_amo_minu_unsigned. Print Assumptions C18_amo_maxu_unsigned.
Print Assumptions C18_sint_twos_complement. Print Assumptions C18_amo_result_fits.
Print Assumptions C18_response_echoes_request. Print Assumptions C18_write_request. Print Assumptions C18_request_frame.
Print Assumptions C18_delay_pipe_order.
Print Assumptions C18_service_in_request_order. Print Assumptions C18_responses_are_spec_prefix.
Print Assumptions C18_responses_echo_requests. Print Assumptions C18_memory_is_fold_of_log.
Print Assumptions C18_drained_port_complete. Print Assumptions C18_timing_irrelevant.
Print Assumptions C18_timing_irrelevant_drained. Print Assumptions C18_cycles_invariant.
Print Assumptions C18_single_port_deterministic.
Print Assumptions C18_check_history_sound. Print Assumptions C18_accepted_history_echo.
Print Assumptions C18_nonvacuous_run. Print Assumptions C18_nonvacuous_acceptor.
