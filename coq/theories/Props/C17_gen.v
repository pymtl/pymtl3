(* Props/C17_gen.v — T-gen tie of property C17: the REAL en/rdy queues of /repo (pymtl3/stdlib/queues/queues.py:
   NormalQueueRTL, PipeQueueRTL, BypassQueueRTL with a Bits2 entry type, 1 / 2 / 3 entries), elaborated and translated block by
   block from their source on every run (Gen/QueueGen.v, translators/stdlib2coq.py), compute in one simulated cycle exactly
   what the register-level models of Lib/QueueRTL.v compute (e1_step for the one-entry classes, crtl_step otherwise) — the
   models that Props/C17.v proves to refine the FIFO specification.   ONLY statements + Print Assumptions.
   Finite facts; the bound (entries, payload alphabet) is in each name / statement. *)
From PV Require Import Base.Prelude RTL.Design RTL.DesignProofs Sched.Accept Lib.Fifo Lib.QueueRTL Gen.QueueGen Lib.QueueGenProofs.
Open Scope Z_scope.

(* legal designs; the emitted order of the combinational blocks is accepted by sched_ok on the PROVED footprints *)
Theorem C17_gen_designs_legal : forallb rd_ok [nq1; nq2; nq3; pq1; pq2; pq3; bq1; bq2; bq3] = true.
Proof. exact gen_queues_ok. Qed.

(* one entry: every (full, entry), reset, enq.en, enq.msg, deq.en *)
Theorem C17_gen_normal_entries1 : q1_spec nq1 P_nq1 R_nq1 Normal.
Proof. exact nq_gen_eq_model_entries1. Qed.
Theorem C17_gen_pipe_entries1 : q1_spec pq1 P_pq1 R_pq1 Pipe.
Proof. exact pq_gen_eq_model_entries1. Qed.
Theorem C17_gen_bypass_entries1 : q1_spec bq1 P_bq1 R_bq1 Bypass.
Proof. exact bq_gen_eq_model_entries1. Qed.

(* two entries: every head, tail < 2, count <= 2, both words and the message over 0..3 *)
Theorem C17_gen_normal_entries2 : qm_spec nq2 P_nq2 R_nq2 Normal 2 [0; 1; 2; 3].
Proof. exact nq_gen_eq_model_entries2. Qed.
Theorem C17_gen_pipe_entries2 : qm_spec pq2 P_pq2 R_pq2 Pipe 2 [0; 1; 2; 3].
Proof. exact pq_gen_eq_model_entries2. Qed.
Theorem C17_gen_bypass_entries2 : qm_spec bq2 P_bq2 R_bq2 Bypass 2 [0; 1; 2; 3].
Proof. exact bq_gen_eq_model_entries2. Qed.

(* three entries: every head, tail < 3, count <= 3, the three words over {1, 2}, the message over 0..3 *)
Theorem C17_gen_normal_entries3 : qm_spec nq3 P_nq3 R_nq3 Normal 3 [1; 2].
Proof. exact nq_gen_eq_model_entries3. Qed.
Theorem C17_gen_pipe_entries3 : qm_spec pq3 P_pq3 R_pq3 Pipe 3 [1; 2].
Proof. exact pq_gen_eq_model_entries3. Qed.
Theorem C17_gen_bypass_entries3 : qm_spec bq3 P_bq3 R_bq3 Bypass 3 [1; 2].
Proof. exact bq_gen_eq_model_entries3. Qed.

(* the other signals do not matter: two environments with the same inputs and registers show the same outputs after
   sim_eval_combinational and hold the same registers after sim_tick (certificate accepted for all nine instances) *)
Theorem C17_gen_obs_det D ins regs outs : obs_det_ok D ins regs outs = true ->
  forall e1 e2, eagree (mem_fp (map (sig_whole D) (ins ++ regs))) e1 e2 ->
  match sim_tick_obs D e1, sim_tick_obs D e2 with
  | Ok (a1, a3), Ok (c1, c3) => eagree (mem_fp (map (sig_whole D) outs)) a1 c1 /\ eagree (mem_fp (map (sig_whole D) regs)) a3 c3
  | Err x, Err y => x = y
  | _, _ => False
  end.
Proof. exact (obs_det_sound D ins regs outs). Qed.
Theorem C17_gen_queues_det :
  obs_det_ok nq1 (q_ins P_nq1) (q1_reglist R_nq1) (q_outs P_nq1) && obs_det_ok pq1 (q_ins P_pq1) (q1_reglist R_pq1) (q_outs P_pq1) &&
  obs_det_ok bq1 (q_ins P_bq1) (q1_reglist R_bq1) (q_outs P_bq1) &&
  obs_det_ok nq2 (q_ins P_nq2) (qm_reglist R_nq2) (q_outs P_nq2) && obs_det_ok pq2 (q_ins P_pq2) (qm_reglist R_pq2) (q_outs P_pq2) &&
  obs_det_ok bq2 (q_ins P_bq2) (qm_reglist R_bq2) (q_outs P_bq2) &&
  obs_det_ok nq3 (q_ins P_nq3) (qm_reglist R_nq3) (q_outs P_nq3) && obs_det_ok pq3 (q_ins P_pq3) (qm_reglist R_pq3) (q_outs P_pq3) &&
  obs_det_ok bq3 (q_ins P_bq3) (qm_reglist R_bq3) (q_outs P_bq3) = true.
Proof. exact gen_queues_det. Qed.

Print Assumptions C17_gen_designs_legal.
Print Assumptions C17_gen_normal_entries1.
Print Assumptions C17_gen_pipe_entries1.
Print Assumptions C17_gen_bypass_entries1.
Print Assumptions C17_gen_normal_entries2.
Print Assumptions C17_gen_pipe_entries2.
Print Assumptions C17_gen_bypass_entries2.
Print Assumptions C17_gen_normal_entries3.
Print Assumptions C17_gen_pipe_entries3.
Print Assumptions C17_gen_bypass_entries3.
Print Assumptions C17_gen_obs_det.
Print Assumptions C17_gen_queues_det.
