(* Props/C15.v — property C15: replacing a component yields the same design as building it directly.
   Statements closed by exact, one non-vacuity example by computation, Print Assumptions. *)
From Coq Require Import List Bool Arith Ascii String Lia.
Import ListNotations.
From PV Require Import Base.Prelude Elab.Replace Elab.ReplaceProofs.

(* metadata = union over components of local contributions keyed by names *)
Theorem C15_metadata_is_union_of_local_contributions H g :
  In g (meta H) <-> exists loc, In (fst g, loc) H /\ In (snd g) loc.
Proof. exact (meta_In H g). Qed.

(* delete + add at a slot (any depth / list position) = metadata of the design built with the replacement in place *)
Theorem C15_delete_add_eq_build H c H' : set_eq (replace (meta H) c H') (meta (subst H c H')).
Proof. exact (delete_add_eq_build H c H'). Qed.
(* delete + add succeeds (no saved name fails to re-evaluate), with the same result, when the replacement exposes the same interface names *)
Theorem C15_delete_add_eq_build_checked H c H' : exposes c H' (saved (meta H) c) = true ->
  exists M', replace_checked (meta H) c H' = Some M' /\ set_eq M' (meta (subst H c H')).
Proof. exact (delete_add_eq_build_checked H c H'). Qed.

(* any sequence of replacements, once or repeatedly, equals the scratch build *)
Theorem C15_replace_seq rs H M : set_eq M (meta H) -> set_eq (replace_seq_meta M rs) (meta (replace_seq_hier H rs)).
Proof. exact (replace_seq rs H M). Qed.
Theorem C15_replace_twice H c H1 H2 : set_eq (meta (subst (subst H c H1) c H2)) (meta (subst H c H2)).
Proof. exact (replace_twice H c H1 H2). Qed.

(* nothing keyed by an object of the removed subtree remains *)
Theorem C15_no_residue_after_delete M c g : In g (delete M c) ->
  under c (owner g) = false /\ forall r, In r (abs_refs g) -> under c r = false.
Proof. exact (no_residue_after_delete M c g). Qed.
Theorem C15_no_residue M c H' g : In g (replace M c H') ->
  (under c (owner g) = true -> In g (meta (rebase c H'))) /\
  (forall r, In r (abs_refs g) -> under c r = true -> In g (meta (rebase c H')) \/ In g (saved M c)).
Proof. exact (no_residue M c H' g). Qed.
Theorem C15_saved_refs_resolve M c H' g r : exposes c H' (saved M c) = true -> In g (saved M c) -> In r (abs_refs g) ->
  under c r = true -> resolves (declared (meta (rebase c H'))) r = true.
Proof. exact (saved_refs_resolve M c H' g r). Qed.
Theorem C15_outside_untouched H c H' g : under c (owner g) = false -> (In g (meta (subst H c H')) <-> In g (meta H)).
Proof. exact (outside_untouched H c H' g). Qed.

(* the comparison evaluated by the harness *)
Theorem C15_case_ok_sound H rs obs both : case_ok (H, rs, obs, both) = true -> set_eq obs (views (meta (replace_seq_hier H rs))).
Proof. exact (case_ok_sound H rs obs both). Qed.
Theorem C15_views_replace_seq H rs : set_eq (views (replace_seq_meta (meta H) rs)) (views (meta (replace_seq_hier H rs))).
Proof. exact (views_replace_seq H rs). Qed.

(* non-vacuity: top with child a (WR-constraint on its wire, an update block) connected to top.out; parent block reads a.out;
   replace a by a component with another block; the stale-entry scenario is exactly what delete must remove *)
Local Open Scope string_scope.
Definition exH : hier :=
  [ ([], [FComp; FSig ["in_"]; FSig ["out"]; FBlk "up_t" "up"; FRead "up_t" ["a"; "out"]; FWrite "up_t" ["out"];
          FEdge (ESig ["a"; "in_"]) (ESig ["in_"])]);
    (["a"], [FComp; FSig ["in_"]; FSig ["out"]; FSig ["w"]; FBlk "up_a" "up"; FRead "up_a" ["in_"]; FWrite "up_a" ["w"];
             FWRU ["w"] "<" "up_b"; FBlk "up_b" "up"; FRead "up_b" ["w"]; FWrite "up_b" ["out"]]) ].
Definition exB : hier :=
  [ ([], [FComp; FSig ["in_"]; FSig ["out"]; FBlk "up_x" "up"; FRead "up_x" ["in_"]; FWrite "up_x" ["out"]]) ].
Example C15_nonvacuous :
  exposes ["a"] exB (saved (meta exH) ["a"]) = true /\
  List.length (saved (meta exH) ["a"]) = 2%nat /\
  rows_eq (views (replace (meta exH) ["a"] exB)) (views (meta (subst exH ["a"] exB))) = true /\
  row_mem ["WRU"; "s.a.w"; "<"; "s.a"; "up_b"] (views (meta exH)) = true /\
  row_mem ["WRU"; "s.a.w"; "<"; "s.a"; "up_b"] (views (replace (meta exH) ["a"] exB)) = false /\
  row_mem ["rd"; "s"; "up_t"; "s.a.out"] (views (replace (meta exH) ["a"] exB)) = true /\
  exposes ["a"] [([], [FComp; FSig ["in_"]])] (saved (meta exH) ["a"]) = false.
Proof. vm_compute. repeat split. Qed.

Print Assumptions C15_metadata_is_union_of_local_contributions. Print Assumptions C15_delete_add_eq_build.
Print Assumptions C15_delete_add_eq_build_checked. Print Assumptions C15_replace_seq. Print Assumptions C15_replace_twice.
Print Assumptions C15_no_residue_after_delete. Print Assumptions C15_no_residue. Print Assumptions C15_saved_refs_resolve.
Print Assumptions C15_outside_untouched. Print Assumptions C15_case_ok_sound. Print Assumptions C15_views_replace_seq.
