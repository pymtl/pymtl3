(* Props/C19_gen.v — T-gen tie of property C19: the REAL RoundRobinArbiter / RoundRobinArbiterEn of /repo, elaborated and
   translated block by block from their source on every run (Gen/ArbiterGen.v, translators/stdlib2coq.py), compute in one
   simulated cycle exactly what the hand-written model Lib.Arbiter.step computes — the model all theorems of
   Props/C19.v are about.   ONLY statements closed by exact/apply + Print Assumptions.

   Finite facts (bound in the name: nreqs = 2, 3, 4), each for EVERY priority-register content 0 .. 2^n - 1 (one-hot or not),
   every request vector, en, reset, and both fillings (all 0 / all 1) of the remaining signals before the cycle:
   sim_eval_combinational shows the model's grants, and after sim_tick the priority register holds the model's next state. *)
From PV Require Import Base.Prelude RTL.Design Lib.Arbiter Gen.ArbiterGen Lib.ArbiterGenProofs.

(* the generated terms are legal designs (shapes, @= / <<= discipline, single writer) and the order in which pymtl3
   scheduled the combinational blocks is accepted by Sched.Accept.sched_ok on the PROVED footprints *)
Theorem C19_gen_designs_legal : forallb rd_ok [rr2; rr3; rr4; rren2; rren3; rren4] = true.
Proof. exact gen_arbiters_ok. Qed.

Theorem C19_gen_rr_nreqs2 : arb_cycle_spec rr2 P_rr2 2 false.
Proof. exact rr_gen_eq_model_nreqs2. Qed.
Theorem C19_gen_rr_nreqs3 : arb_cycle_spec rr3 P_rr3 3 false.
Proof. exact rr_gen_eq_model_nreqs3. Qed.
Theorem C19_gen_rr_nreqs4 : arb_cycle_spec rr4 P_rr4 4 false.
Proof. exact rr_gen_eq_model_nreqs4. Qed.
Theorem C19_gen_rren_nreqs2 : arb_cycle_spec rren2 P_rren2 2 true.
Proof. exact rren_gen_eq_model_nreqs2. Qed.
Theorem C19_gen_rren_nreqs3 : arb_cycle_spec rren3 P_rren3 3 true.
Proof. exact rren_gen_eq_model_nreqs3. Qed.
Theorem C19_gen_rren_nreqs4 : arb_cycle_spec rren4 P_rren4 4 true.
Proof. exact rren_gen_eq_model_nreqs4. Qed.

(* the same for ANY content of all other signals before the cycle (stale wires): the environment only has to carry
   reset, reqs, en and the priority register; claimed are the nreqs declared bits of grants / of the register *)
Theorem C19_gen_any_rr_nreqs2 : arb_cycle_spec_any rr2 P_rr2 2 false.
Proof. exact rr_gen_eq_model_any_nreqs2. Qed.
Theorem C19_gen_any_rr_nreqs3 : arb_cycle_spec_any rr3 P_rr3 3 false.
Proof. exact rr_gen_eq_model_any_nreqs3. Qed.
Theorem C19_gen_any_rr_nreqs4 : arb_cycle_spec_any rr4 P_rr4 4 false.
Proof. exact rr_gen_eq_model_any_nreqs4. Qed.
Theorem C19_gen_any_rren_nreqs2 : arb_cycle_spec_any rren2 P_rren2 2 true.
Proof. exact rren_gen_eq_model_any_nreqs2. Qed.
Theorem C19_gen_any_rren_nreqs3 : arb_cycle_spec_any rren3 P_rren3 3 true.
Proof. exact rren_gen_eq_model_any_nreqs3. Qed.
Theorem C19_gen_any_rren_nreqs4 : arb_cycle_spec_any rren4 P_rren4 4 true.
Proof. exact rren_gen_eq_model_any_nreqs4. Qed.

(* the statement spelled out for one instance (arb_cycle_spec unfolded) *)
Theorem C19_gen_rren_nreqs4_unfolded :
  forall (fill : bool) (vp vq : Z) (ve vr : bool), (0 <= vp < 2 ^ 4)%Z -> (0 <= vq < 2 ^ 4)%Z ->
  exists e1 e3,
    sim_tick_obs rren4 (arb_env rren4 P_rren4 fill vp vq ve vr) = Ok (e1, e3) /\
    nth rren4_grants e1 0%Z = Z_of_list (fst (Arbiter.step 4 true (to_list 4 (bv_of_Z vp)) (vr, ve, bv_of_Z vq))) /\
    nth rren4_prio e3 0%Z = Z_of_list (snd (Arbiter.step 4 true (to_list 4 (bv_of_Z vp)) (vr, ve, bv_of_Z vq))).
Proof. exact rren_gen_eq_model_nreqs4. Qed.

Print Assumptions C19_gen_designs_legal.
Print Assumptions C19_gen_rr_nreqs2.
Print Assumptions C19_gen_rr_nreqs3.
Print Assumptions C19_gen_rr_nreqs4.
Print Assumptions C19_gen_rren_nreqs2.
Print Assumptions C19_gen_rren_nreqs3.
Print Assumptions C19_gen_rren_nreqs4.
Print Assumptions C19_gen_rren_nreqs4_unfolded.
Print Assumptions C19_gen_any_rr_nreqs2.
Print Assumptions C19_gen_any_rr_nreqs3.
Print Assumptions C19_gen_any_rr_nreqs4.
Print Assumptions C19_gen_any_rren_nreqs2.
Print Assumptions C19_gen_any_rren_nreqs3.
Print Assumptions C19_gen_any_rren_nreqs4.
