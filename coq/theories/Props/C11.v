(* Props/C11.v — property C11: combinational cycles settle on a fixed point or are reported. Statements only. *)
From Coq Require Import ZArith List Bool Arith Lia Permutation.
Import ListNotations.
From PV Require Import Sched.Block Sched.Confluence Sched.SccIter Sched.GroupSched Sched.Accept Sched.GroupAccept Sched.FalseLoop.

Section C11.
Context {var val : Type}.
Variable B : nat -> blk var val.

(* one cyclic group iterated until its watched variables are stable: the returned state is fixed under every block *)
Theorem C11_scc_returns_fixed_point (group : list nat) (watched : var -> bool)
  (stable : env var val -> env var val -> bool) :
  (forall e e', stable e e' = true -> forall v, watched v = true -> e v = e' v) ->
  NoDup group -> (forall i, In i group -> frame (B i)) -> (forall i, In i group -> sdep (B i)) ->
  (forall i, In i group -> nsl (B i)) -> single_writer B group ->
  (forall i j v, In i group -> In j group -> i <> j -> wr (B i) v = true -> rd (B j) v = true -> watched v = true) ->
  forall fuel e r, scc_iter B group stable fuel e = Some r -> forall i, In i group -> fixed_under B i r.
Proof. intros Hst Hnd Hf Hd Hn Hs Hc. exact (scc_fixed_point B group watched stable Hst Hnd Hf Hd Hn Hs Hc). Qed.

(* false loops: when the bit-level dependency relation of the group is in fact acyclic (E orders every feeding pair and
   some order s of the same blocks is a linear extension of E), whatever the iteration returns IS the state one pass of the
   acyclic reference order s computes — for every run order of the group, every bound, every start state *)
Theorem C11_false_loop_equals_acyclic_reference (group : list nat) (watched : var -> bool)
  (stable : env var val -> env var val -> bool) (E : nat -> nat -> bool) :
  (forall e e', stable e e' = true -> forall v, watched v = true -> e v = e' v) ->
  NoDup group -> (forall i, In i group -> frame (B i)) -> (forall i, In i group -> sdep (B i)) ->
  (forall i, In i group -> nsl (B i)) -> single_writer B group ->
  (forall i j v, In i group -> In j group -> i <> j -> wr (B i) v = true -> rd (B j) v = true -> watched v = true) ->
  (forall i j, In i group -> In j group -> i <> j -> feeds B i j -> E i j = true) ->
  forall s fuel e r, Permutation group s -> lin_ext E s ->
  scc_iter B group stable fuel e = Some r -> eqe r (run_list B s e).
Proof. intros Hst Hnd Hf Hd Hn Hs Hc He. exact (false_loop_equals_acyclic_reference B group watched stable Hst Hnd Hf Hd Hn Hs Hc E He). Qed.

(* no stable round within the bound => error (None), never a normal-looking state *)
Theorem C11_divergent_is_error (group : list nat) (stable : env var val -> env var val -> bool) fuel e :
  (forall k, (k < fuel)%nat ->
     let ek := Nat.iter k (run_list B group) e in stable ek (run_list B group ek) = false) ->
  scc_iter B group stable fuel e = None.
Proof. exact (divergent_error B group stable fuel e). Qed.

(* evaluation never hangs: the iteration is total for every bound *)
Theorem C11_never_hangs (group : list nat) (stable : env var val -> env var val -> bool) fuel e :
  (exists r, scc_iter B group stable fuel e = Some r) \/ scc_iter B group stable fuel e = None.
Proof. exact (scc_iter_total B group stable fuel e). Qed.

Theorem C11_group_error_propagates (stable : list nat -> env var val -> env var val -> bool) fuel pre g post e e' :
  run_groups B stable fuel pre e = Some e' -> run_group B stable fuel g e' = None ->
  run_groups B stable fuel (pre ++ g :: post) e = None.
Proof. exact (grouped_error_propagates B stable fuel pre g post e e'). Qed.
End C11.

(* end-to-end: the real scheduler's groups + watched objects, accepted by groups_ok, for ANY block semantics
   respecting the footprints and ANY iteration bound: on return no block of the design changes anything *)
Theorem C11_accepted_grouped_schedule_returns_fixed_point {val : Type} (d : design)
  (R : nat -> env bit val -> env bit val) (gs : list (list nat)) (wfp : list nat -> fp)
  (stable : list nat -> env bit val -> env bit val -> bool) (fuel : nat) :
  (forall g e e', stable g e e' = true -> forall v, mem_fp (wfp g) v = true -> e v = e' v) ->
  (forall i, In i (ids d) -> frame (Bd d R i)) -> (forall i, In i (ids d) -> sdep (Bd d R i)) ->
  groups_ok d gs wfp = true ->
  forall e r, run_groups (Bd d R) stable fuel gs e = Some r -> forall i, In i (ids d) -> fixed_under (Bd d R) i r.
Proof. exact (accepted_groups_fixed_point d R gs wfp stable fuel). Qed.

(* non-vacuity of the false-loop theorem (FalseLoop.flB: x1 := x0 + 1 ; x2 := x1 * 2, group run in the wrong order [1;0]):
   every hypothesis holds, the iteration returns after two rounds with the reference values, and errors with bound 1 *)
Open Scope nat_scope.
Example C11_false_loop_nonvacuous :
  (forall e e', flStable e e' = true -> forall v, (v =? 1) = true -> e v = e' v) /\
  NoDup [1; 0] /\
  (forall i, In i [1; 0] -> frame (flB i)) /\ (forall i, In i [1; 0] -> sdep (flB i)) /\
  (forall i, In i [1; 0] -> nsl (flB i)) /\ single_writer flB [1; 0] /\
  (forall i j v, In i [1; 0] -> In j [1; 0] -> i <> j -> wr (flB i) v = true -> rd (flB j) v = true -> (v =? 1) = true) /\
  (forall i j, In i [1; 0] -> In j [1; 0] -> i <> j -> feeds flB i j -> flE i j = true) /\
  Permutation [1; 0] [0; 1] /\ lin_ext flE [0; 1] /\
  exists r, scc_iter flB [1; 0] flStable 3 (fun _ => 0) = Some r /\ r 1 = 1 /\ r 2 = 2 /\
            run_list flB [0; 1] (fun _ => 0) 1 = 1 /\ run_list flB [0; 1] (fun _ => 0) 2 = 2 /\
            scc_iter flB [1; 0] flStable 1 (fun _ => 0) = None.
Proof. exact false_loop_nonvacuous. Qed.
Close Scope nat_scope.

(* non-vacuity: P writes a (sig 1) and d (sig 3), reads i (sig 0) and b (sig 2); Q writes b, reads a; a third
   block reads d: the group {P,Q} watched a and b, followed by the third block, is accepted; watching only a is rejected;
   the third block before the group it reads from is rejected *)
Definition loopd : design :=
  mkDesign 3 (fun i => match i with 0%nat => [(0%nat,0%Z,8%Z); (2%nat,0%Z,8%Z)] | 1%nat => [(1%nat,0%Z,8%Z)] | _ => [(3%nat,0%Z,8%Z)] end)
             (fun i => match i with 0%nat => [(1%nat,0%Z,8%Z); (3%nat,0%Z,8%Z)] | 1%nat => [(2%nat,0%Z,8%Z)] | _ => [(4%nat,0%Z,8%Z)] end) [].
Example C11_nonvacuous :
  groups_ok loopd [[0;1];[2]]%nat (fun _ => [(1%nat,0%Z,8%Z); (2%nat,0%Z,8%Z)]) = true /\
  groups_ok loopd [[0;1];[2]]%nat (fun _ => [(1%nat,0%Z,8%Z)]) = false /\
  groups_ok loopd [[2];[0;1]]%nat (fun _ => [(1%nat,0%Z,8%Z); (2%nat,0%Z,8%Z)]) = false.
Proof. vm_compute. repeat split. Qed.

Print Assumptions C11_scc_returns_fixed_point. Print Assumptions C11_divergent_is_error. Print Assumptions C11_never_hangs.
Print Assumptions C11_group_error_propagates. Print Assumptions C11_accepted_grouped_schedule_returns_fixed_point.
Print Assumptions C11_false_loop_equals_acyclic_reference. Print Assumptions C11_false_loop_nonvacuous.
