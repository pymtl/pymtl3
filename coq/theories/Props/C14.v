(* Props/C14.v — property C14: hierarchical names are unique and evaluate back to their objects.
   Statements closed by exact, one non-vacuity example by computation, Print Assumptions. *)
From Coq Require Import List Bool Arith Ascii String Lia.
Import ListNotations.
From PV Require Import Base.Prelude Elab.Names Elab.NamesProofs.
Local Open Scope nat_scope.

(* eval(repr(o)) is o : for every object (component, interface, method port, declared / field / list-element / slice signal) *)
Theorem C14_eval_repr_is_object t p : wf t = true -> is_object t p = true ->
  parse_name (full_name t p) = Some (name_of t p) /\ resolve t (name_of t p) = Some p.
Proof. exact (full_name_roundtrip t p). Qed.

(* distinct objects have distinct names (token lists and printed strings); sibling names distinct + identifiers well-formed = wf *)
Theorem C14_names_injective t p q : wf t = true -> is_object t p = true -> is_object t q = true ->
  name_of t p = name_of t q -> p = q.
Proof. exact (name_inj t p q). Qed.
Theorem C14_printed_names_injective t p q : wf t = true -> is_object t p = true -> is_object t q = true ->
  full_name t p = full_name t q -> p = q.
Proof. exact (full_name_inj t p q). Qed.
Theorem C14_enumerated_objects_distinct t p q : wf t = true -> In p (objects t) -> In q (objects t) ->
  full_name t p = full_name t q -> p = q.
Proof. exact (objects_names_distinct t p q). Qed.
Theorem C14_objects_enumeration t p : In p (objects t) <-> is_object t p = true.
Proof. exact (objects_spec t p). Qed.

(* whatever a name evaluates to is an object, and the canonical name of that object evaluates to it again *)
Theorem C14_eval_sound t ts p : wf t = true -> resolve t ts = Some p -> is_object t p = true.
Proof. exact (resolve_sound t ts p). Qed.
Theorem C14_eval_canonical t ts p : wf t = true -> resolve t ts = Some p -> resolve t (name_of t p) = Some p.
Proof. exact (resolve_canonical t ts p). Qed.

(* printing a token list and tokenising the characters is the identity *)
Theorem C14_print_tokenize ts : forallb tok_ok ts = true -> tokenize (print_tokens ts) = Some ts.
Proof. exact (print_tokenize ts). Qed.

(* slices of slices are normalised: x[a:b][c:d] is the object named x[a+c:a+d];  x[i] is x[i:i+1] *)
Theorem C14_slice_of_slice t ts rest n rp a b c d :
  run t [] ts = Some (NBits n, rp) -> a < b <= n -> c < d <= b - a ->
  resolve t (ts ++ TSlice a b :: TSlice c d :: rest) = resolve t (ts ++ TSlice (a + c) (a + d) :: rest).
Proof. exact (slice_of_slice_norm t ts rest n rp a b c d). Qed.
Theorem C14_slice_of_slice_name t p n a b c d : wf t = true -> node_at t p = Some (NBits n) -> a < b <= n -> c < d <= b - a ->
  resolve t (name_of t p ++ [TSlice a b; TSlice c d]) = Some (p ++ [PSlice (a + c) (a + d)]) /\
  name_of t (p ++ [PSlice (a + c) (a + d)]) = name_of t p ++ [TSlice (a + c) (a + d)].
Proof. exact (slice_of_slice_name t p n a b c d). Qed.
Theorem C14_index_is_unit_slice t ts rest n rp i : run t [] ts = Some (NBits n, rp) ->
  resolve t (ts ++ TIdx i :: rest) = resolve t (ts ++ TSlice i (S i) :: rest).
Proof. exact (index_is_unit_slice t ts rest n rp i). Qed.

(* parent metadata: the parent's path / name is a proper prefix and the parent is an object *)
Theorem C14_parent_prefix p : p <> [] -> exists suffix, p = parent p ++ suffix /\ suffix <> [].
Proof. exact (parent_prefix p). Qed.
Theorem C14_parent_is_object t p : is_list t = false -> is_object t p = true -> is_object t (parent p) = true.
Proof. exact (parent_is_object t p). Qed.
Theorem C14_parent_name_prefix t p : is_list t = false -> is_object t p = true ->
  exists rest, name_of t p = name_of t (parent p) ++ rest.
Proof. intros _. exact (parent_name_prefix t p). Qed.

(* level = number of attribute hops = number of ".id" tokens = parent's level + 1 *)
Theorem C14_level_is_dot_count p t ts n : walk t p = Some (ts, n) -> count_dots ts = level p.
Proof. exact (level_dots p t ts n). Qed.
Theorem C14_level_parent t p : is_list t = false -> is_object t p = true -> p <> [] ->
  (forall lo hi, last p (PChild 0) <> PSlice lo hi) -> level p = S (level (parent p)).
Proof. exact (level_parent t p). Qed.

(* host component: a component, a prefix of the path, the nearest one along the parent chain *)
Theorem C14_host t p : is_comp t = true ->
  (exists suf, p = host t p ++ suf) /\ is_comp_at t (host t p) = true /\
  (is_comp_at t p = true -> host t p = p) /\ (is_comp_at t p = false -> host t p = host t (parent p)).
Proof. exact (host_spec t p). Qed.

(* top-level signal: the outermost signal on the path (a declared signal), a prefix; exists for every signal object *)
Theorem C14_top_level_signal t p q : top_level_signal t p = Some q ->
  (exists r, p = q ++ r) /\ is_sig_at t q = true /\ (forall q1 q2, q = q1 ++ q2 -> q2 <> [] -> is_sig_at t q1 = false).
Proof. exact (tls_spec t p q). Qed.
Theorem C14_top_level_signal_exists t p : is_sig_at t p = true -> exists q, top_level_signal t p = Some q.
Proof. exact (tls_exists t p). Qed.

(* the acceptor run by the harness on what pymtl3 reported *)
Theorem C14_observation_checker_sound t o : wf t = true -> obs_ok t o = true ->
  exists p, is_object t p = true /\ full_name t p = o_name o /\
            parse_name (o_name o) = Some (name_of t p) /\ resolve t (name_of t p) = Some p.
Proof. exact (obs_ok_sound t o). Qed.
Theorem C14_eager_are_objects t p : In p (eager t) -> is_object t p = true.
Proof. exact (eager_is_object t p). Qed.

(* non-vacuity: a hierarchy with a list of components, a struct signal with a list field and a nested struct, a method port *)
Definition ex_tree : node :=
  NComp [("clk"%string, NBits 1);
         ("a"%string, NList [NList [NComp [("x"%string, NBits 8)]]; NList [NComp [("x"%string, NBits 8)]]]);
         ("q"%string, NStruct [("v"%string, NList [NBits 4; NBits 4]); ("p"%string, NStruct [("a"%string, NBits 8)])]);
         ("ifc"%string, NList [NIfc [("msg"%string, NBits 16); ("m"%string, NMeth)]])].
Example C14_nonvacuous :
  wf ex_tree = true /\ is_comp ex_tree = true /\
  option_map (resolve ex_tree) (parse_name "s.a[1][0].x[2:7][1:3]") = Some (Some [PChild 1; PElem 1; PElem 0; PChild 0; PSlice 3 5]) /\
  full_name ex_tree [PChild 2; PChild 0; PElem 1; PSlice 0 2] = "s.q.v[1][0:2]"%string /\
  parent [PChild 1; PElem 1; PElem 0] = [] /\ level [PChild 1; PElem 1; PElem 0; PChild 0] = 2 /\
  host ex_tree [PChild 3; PElem 0; PChild 0; PSlice 0 4] = [] /\
  host ex_tree [PChild 1; PElem 0; PElem 0; PChild 0] = [PChild 1; PElem 0; PElem 0] /\
  top_level_signal ex_tree [PChild 2; PChild 1; PChild 0; PSlice 1 2] = Some [PChild 2] /\
  resolve ex_tree [TDot "a"; TIdx 1] = None /\ resolve ex_tree [TDot "q"; TSlice 0 1] = None /\
  List.length (objects ex_tree) = 279.
Proof. vm_compute. repeat split. Qed.

Print Assumptions C14_eval_repr_is_object. Print Assumptions C14_names_injective. Print Assumptions C14_printed_names_injective.
Print Assumptions C14_enumerated_objects_distinct. Print Assumptions C14_objects_enumeration.
Print Assumptions C14_eval_sound. Print Assumptions C14_eval_canonical. Print Assumptions C14_print_tokenize.
Print Assumptions C14_slice_of_slice. Print Assumptions C14_slice_of_slice_name. Print Assumptions C14_index_is_unit_slice.
Print Assumptions C14_parent_prefix. Print Assumptions C14_parent_is_object. Print Assumptions C14_parent_name_prefix.
Print Assumptions C14_level_is_dot_count. Print Assumptions C14_level_parent. Print Assumptions C14_host.
Print Assumptions C14_top_level_signal. Print Assumptions C14_top_level_signal_exists.
Print Assumptions C14_observation_checker_sound. Print Assumptions C14_eager_are_objects.
