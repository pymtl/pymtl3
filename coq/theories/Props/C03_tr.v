(* Props/C03_tr.v — property C03, the part about the TRANSLATOR: a model of what BehavioralRTLIRToVVisitorL1..L3 emit
   (SV/Translate.v: tr_expr / tr_lhs / tr_stmt / tr_block) and its soundness (SV/TranslateSound.v) with respect to
   the simulator semantics RTL/Eval.v and OUR IEEE-1800 semantics SV/SvSizing.v + SV/SvEval.v.
   Statements, each a few lines from SV/TranslateSound.v, with Print Assumptions, and non-vacuity examples.
   Proved: all expressions; single assignments; if; WHOLE always_comb and always_ff blocks of plain designs without for
   loops (C03_tr_comb_block_sound, C03_tr_ff_block_sound).  Not proved: for loops, designs with lists of signals.

   How this reaches the code (harness/c03_tr.py, every run of ./check C03): for every update block that
   translators/rtlblk2coq.py can express, Coq checks  sv_block_eqb (tr_block names G t) p = true  where p is the always
   block svparse.py read from the text the REAL translator wrote; and it evaluates the acceptors on the block: blk_ok, and
   plain_ok with comb_ok / ff_ok, the hypotheses of the block theorems.  So for such a block the emitted text IS tr_block
   of its RTL term (up to inlined localparams, Translate.norm), and the theorems below are statements about the emitted
   text. *)
From Coq Require Import FMapPositive.
From PV Require Import Base.Prelude Bits.BitsSpec RTL.Syntax RTL.Eval RTL.Typing SV.Translate SV.TranslateSound.
From PV Require SV.SvSyntax SV.SvSizing SV.SvEval.
Open Scope Z_scope.

(* ---- expressions: all 18 constructors of RTL/Syntax.v ----
   In corresponding environments (every signal / field, temporary and loop variable holds the same number on both
   sides: TranslateSound.corr), for an expression accepted by sv_ok, whenever the simulator evaluates e without raising:
   a Bits value (n, u): the emitted expression has self-determined width n and evaluates to u at width n
                        (= in the context of an assignment to an n-bit target: eval_ctx);
   a python int z:      the emitted expression evaluates to z at its self-determined width and at every wider one. *)
Theorem C03_tr_expr_sound nm E te st en : corr nm E te st en ->
  forall e ctx v, sv_ok te nm E ctx e = true -> eval (tsig E) st e = Ok v ->
  match v with
  | VBits n u => 0 < n < 1024 /\ Z'.selfw te (tr_expr nm E ctx e) = n /\ Z'.eval te en n (tr_expr nm E ctx e) = u
  | VInt z => 0 <= z < 2 ^ Z'.selfw te (tr_expr nm E ctx e) /\
              forall Wd, Z'.selfw te (tr_expr nm E ctx e) <= Wd -> Z'.eval te en Wd (tr_expr nm E ctx e) = z
  end.
Proof. exact (tr_expr_sound nm E te st en). Qed.

Theorem C03_tr_expr_bits_assignment_context nm E te st en : corr nm E te st en ->
  forall e ctx n u, sv_ok te nm E ctx e = true -> eval (tsig E) st e = Ok (VBits n u) ->
  Z'.eval_ctx te en n (tr_expr nm E ctx e) = u /\ 0 <= u < 2 ^ n.
Proof.
  intros HC e ctx n u Hok Hev. destruct (tr_expr_sound nm E te st en HC e ctx _ Hok Hev) as (Hn & Hw & <-).
  split; [unfold Z'.eval_ctx; rewrite Hw, Z.max_id; reflexivity|apply ev_range; lia].
Qed.

(* the condition of an emitted `if` / `?:` is taken exactly when python takes it *)
Theorem C03_tr_cond_sound nm E te st en : corr nm E te st en ->
  forall c v, sv_ok te nm E None c = true -> eval (tsig E) st c = Ok v ->
  Z'.truthy (Z'.eval_self te en (tr_expr nm E None c)) = truthy v.
Proof. exact (tr_cond_sound nm E te st en). Qed.

(* ---- single assignments: the value an emitted assignment transfers and the place it transfers it to ----
   SvEval: `lhs = rhs` writes assign_value lhs rhs to resolve lhs at once, `lhs <= rhs` queues that pair
   (C03_tr_assign_exec, which is SvProofs.blocking_immediate / nonblocking_defers on the emitted statement).  The four
   theorems identify the pair with what RTL.Eval.exec_assign does to the simulator state. *)
Theorem C03_tr_assign_exec nm E te lbl l e blocking x :
  X.exec te (tr_stmt nm E (SAssign lbl l e blocking)) x =
  let tgt := Z'.resolve te (X.x_env x) (tr_lhs nm E l) in
  let val := X.assign_value te (X.x_env x) (tr_lhs nm E l) (tr_expr nm E (assign_ctx E l e) e) in
  if blocking then X.mkx (Z'.write_ref tgt val (X.x_env x)) (X.x_pend x) (X.x_ok x)
  else X.mkx (X.x_env x) (X.x_pend x ++ [(tgt, val)]) (X.x_ok x).
Proof. exact (tr_stmt_assign_exec nm E te lbl l e blocking x). Qed.

(* sig @= e , sig.field @= e , sig <<= e *)
Theorem C03_tr_assign_signal nm E te st en : corr nm E te st en -> forall lbl s p e blocking st',
  assign_ok te nm E (LSig s p) e blocking = true -> exec_assign (tsig E) st lbl (LSig s p) e blocking = Ok st' ->
  exists f u, lookup_sig (tsig E) s p = Some f /\
    X.assign_value te en (tr_lhs nm E (LSig s p)) (tr_expr nm E (assign_ctx E (LSig s p) e) e) = Z'.VZ u /\ 0 <= u < 2 ^ fw f /\
    (if blocking then sigv st' s = splice (sigv st s) (flo f) (flo f + fw f) u /\ nxtv st' = nxtv st
     else nxtv st' s = Some (splice (sigv st s) (flo f) (flo f + fw f) u) /\ sigv st' = sigv st) /\
    unchanged_but st s st'.
Proof. exact (tr_assign_sig_sound nm E te st en). Qed.

(* sig[lo:hi] @= e *)
Theorem C03_tr_assign_part_select nm E te st en : corr nm E te st en -> forall lbl s p lo hi e st',
  assign_ok te nm E (LSlice s p lo hi) e true = true -> exec_assign (tsig E) st lbl (LSlice s p lo hi) e true = Ok st' ->
  exists f x ix o l h u,
    lookup_sig (tsig E) s p = Some f /\ 0 <= l /\ l < h /\ h <= fw f /\
    Z'.resolve te en (tr_sig nm s p) = Some (Z'.mkref x ix [] o (S.PBits (fw f))) /\
    Z'.resolve te en (tr_lhs nm E (LSlice s p lo hi)) = Some (Z'.mkref x ix [] (o + l) (S.PBits (h - l))) /\
    X.assign_value te en (tr_lhs nm E (LSlice s p lo hi)) (tr_expr nm E (assign_ctx E (LSlice s p lo hi) e) e) = Z'.VZ u /\
    0 <= u < 2 ^ (h - l) /\
    sigv st' s = splice (sigv st s) (flo f) (flo f + fw f) (splice ((sigv st s / 2 ^ flo f) mod 2 ^ fw f) l h u) /\
    nxtv st' = nxtv st /\ unchanged_but st s st'.
Proof. exact (tr_assign_slice_sound nm E te st en). Qed.

(* sig[i] @= e *)
Theorem C03_tr_assign_bit nm E te st en : corr nm E te st en -> forall lbl s p i e st',
  assign_ok te nm E (LIndex s p i) e true = true -> exec_assign (tsig E) st lbl (LIndex s p i) e true = Ok st' ->
  exists f x ix o k u,
    lookup_sig (tsig E) s p = Some f /\ 0 <= k < fw f /\
    Z'.resolve te en (tr_sig nm s p) = Some (Z'.mkref x ix [] o (S.PBits (fw f))) /\
    Z'.resolve te en (tr_lhs nm E (LIndex s p i)) = Some (Z'.mkref x ix [] (o + k) (S.PBits 1)) /\
    X.assign_value te en (tr_lhs nm E (LIndex s p i)) (tr_expr nm E (assign_ctx E (LIndex s p i) e) e) = Z'.VZ u /\ 0 <= u < 2 /\
    sigv st' s = splice (sigv st s) (flo f) (flo f + fw f) (splice ((sigv st s / 2 ^ flo f) mod 2 ^ fw f) k (k + 1) u) /\
    nxtv st' = nxtv st /\ unchanged_but st s st'.
Proof. exact (tr_assign_index_sound nm E te st en). Qed.

(* tmp = e *)
Theorem C03_tr_assign_temporary nm E te st en : corr nm E te st en -> forall lbl i e w st',
  PositiveMap.find (n_tmp nm i) te = Some (S.PBits w, []) ->
  assign_ok te nm E (LTmp i) e true = true -> exec_assign (tsig E) st lbl (LTmp i) e true = Ok st' ->
  exists v, eval (tsig E) st e = Ok v /\ tmpv st' i = Some v /\ (forall j, j <> i -> tmpv st' j = tmpv st j) /\
    sigv st' = sigv st /\ nxtv st' = nxtv st /\ loopv st' = loopv st /\
    X.assign_value te en (tr_lhs nm E (LTmp i)) (tr_expr nm E (assign_ctx E (LTmp i) e) e) = Z'.VZ (value_int v) /\
    0 <= value_int v < 2 ^ w.
Proof. exact (tr_assign_tmp_sound nm E te st en). Qed.

(* if / elif / else: the emitted statement runs the translation of the branch python runs *)
Theorem C03_tr_if nm E te st x lbl c t f v : corr nm E te st (X.x_env x) ->
  sv_ok te nm E None c = true -> eval (tsig E) st c = Ok v ->
  X.exec te (tr_stmt nm E (SIf lbl c t f)) x =
    X.exec_list te (if truthy v then tr_stmts nm E t else tr_stmts nm (env_after_list E t) f) x /\
  exec (tsig E) (SIf lbl c t f) st =
    exec_list (exec (tsig E)) (if truthy v then t else f)
      (add_evs st (map (fun p => (lbl, fst p, snd p)) (probes (tsig E) st 0 c))).
Proof. exact (tr_if_sound nm E te st x lbl c t f v). Qed.

(* ---- whole blocks: always_comb and always_ff ----
   For a plain design (plain_ok: every signal ONE scalar variable of the module - Bits vector or packed struct -, fields at
   the offsets of the declaration table, temporaries declared, all spellings distinct) and an update block accepted by
   comb_ok / ff_ok (assignments to signals / fields / part selects / bits / temporaries - blocking in a combinational
   block; non-blocking to whole signals plus blocking temporaries in an update_ff block -, arbitrarily nested
   if / elif / else, every expression sv_ok, the block type-checks; NO for loop), from related states
   (inv: every signal variable holds the simulator's packed value modulo the signal width, assigned temporaries their
   value; comb: nothing pending; ff: committing the pending list yields what the simulator's signals hold after the edge):
   if the simulator runs the block without raising, then after SvEval has run the EMITTED always body
     comb: nothing is pending and EVERY signal and field (s, p) reads the simulator's new value of that field;
     ff:   after the commit at the clock edge every signal and field reads the simulator's post-edge value (final_sig),
           and before it still the pre-edge value;
   x_ok stays true (trivially: these blocks contain no loop), and every temporary python has assigned holds its value. *)
Theorem C03_tr_comb_block_sound te nm G ntmp b st st' x :
  plain_ok te nm G ntmp = true -> comb_ok te nm ntmp G b = true ->
  inv te nm G ntmp false (init_tenv G) st x -> exec_block G b st = Ok st' ->
  let x' := X.exec_list te (tr_block nm G b) x in
  X.x_pend x' = [] /\ X.x_ok x' = true /\
  (forall s p f, lookup_sig G s p = Some f ->
     Z'.read_bits (X.x_env x') (Z'.resolve te (X.x_env x') (tr_sig nm s p)) = (sigv st' s / 2 ^ flo f) mod 2 ^ fw f) /\
  (forall i v, tmpv st' i = Some v -> Z'.lookup (X.x_env x') (n_tmp nm i) = Z'.VZ (value_int v)).
Proof.
  intros HP Hok I Hex. pose proof (tr_block_preserves_inv te nm G ntmp false HP b st st' x Hok I Hex) as I'.
  split; [exact (inv_pend_comb _ _ _ _ _ _ _ _ eq_refl I')|]. exact (inv_reads te nm G ntmp false HP _ _ _ I').
Qed.

Theorem C03_tr_ff_block_sound te nm G ntmp b st st' x :
  plain_ok te nm G ntmp = true -> ff_ok te nm ntmp G b = true ->
  inv te nm G ntmp true (init_tenv G) st x -> exec_block G b st = Ok st' ->
  let x' := X.exec_list te (tr_block nm G b) x in
  let enc := X.commit (X.x_pend x') (X.x_env x') in
  X.x_ok x' = true /\
  (forall s p f, lookup_sig G s p = Some f ->
     Z'.read_bits enc (Z'.resolve te enc (tr_sig nm s p)) = (final_sig st' s / 2 ^ flo f) mod 2 ^ fw f) /\
  (forall s p f, lookup_sig G s p = Some f ->
     Z'.read_bits (X.x_env x') (Z'.resolve te (X.x_env x') (tr_sig nm s p)) = (sigv st' s / 2 ^ flo f) mod 2 ^ fw f) /\
  (forall i v, tmpv st' i = Some v -> Z'.lookup (X.x_env x') (n_tmp nm i) = Z'.VZ (value_int v)).
Proof.
  intros HP Hok I Hex. pose proof (tr_block_preserves_inv te nm G ntmp true HP b st st' x Hok I Hex) as I'.
  destruct (inv_reads te nm G ntmp true HP _ _ _ I') as (H1 & H2 & H3).
  split; [exact H1|]. split; [exact (inv_reads_ff te nm G ntmp true HP _ _ _ eq_refl I')|]. split; assumption.
Qed.

(* ... the relation is an invariant of both kinds of block (this is what composes: the final states are related again) ... *)
Theorem C03_tr_block_invariant te nm G ntmp ff b st st' x :
  plain_ok te nm G ntmp = true -> cstmts_ok te nm ntmp ff (init_tenv G) b = true ->
  inv te nm G ntmp ff (init_tenv G) st x -> exec_block G b st = Ok st' ->
  inv te nm G ntmp ff (env_after_list (init_tenv G) b) st' (X.exec_list te (tr_block nm G b) x).
Proof. intros HP. exact (tr_block_preserves_inv te nm G ntmp ff HP b st st' x). Qed.

(* ... and it holds where an always block starts: signal variables hold the packed signal values, python has not assigned
   any temporary yet, (ff) no <<= has been executed yet *)
Theorem C03_tr_block_start te nm G ntmp ff st en :
  (forall i, tmpv st i = None) -> (ff = true -> forall s, nxtv st s = None) ->
  (forall s f0, lookup_sig G s [] = Some f0 -> PositiveMap.find (sid nm s) en = Some (Z'.VZ (sigv st s))) ->
  (forall i w, (i < ntmp)%nat -> tmp_decl te nm i = Some w ->
     exists U, PositiveMap.find (n_tmp nm i) en = Some (Z'.VZ U) /\ 0 <= U < 2 ^ w) ->
  inv te nm G ntmp ff (init_tenv G) st (X.mkx en [] true).
Proof. exact (inv_init te nm G ntmp ff st en). Qed.

(* the key lemma of the induction: ONE accepted statement (assignment of any target kind, or if) preserves the relation
   under the typing environment threaded by env_after *)
Theorem C03_tr_stmt_preserves te nm G ntmp ff : plain_ok te nm G ntmp = true -> forall s E,
  cstmt_ok te nm ntmp ff E s = true -> tmps_ok te nm ntmp E ->
  forall st x st', inv te nm G ntmp ff E st x -> exec G s st = Ok st' ->
  inv te nm G ntmp ff (env_after E s) st' (X.exec te (tr_stmt nm E s) x).
Proof. intros HP s E Hok T. exact (proj2 (stmt_prop_all te nm G ntmp ff HP s E Hok T)). Qed.

(* Not proved: for loops and designs with lists of signals; what is missing is said at
   TranslateSound.tr_block_sound_partial, the general statement, which harness/c03_tr.py samples on random inputs for
   every compared block on every run (Translate.blk_diff). *)

(* ---- the comparison used by the tie is an equality up to inlined localparams ---- *)
Theorem C03_tr_sexpr_eqb_eq x y : sexpr_eqb x y = true -> x = y.
Proof. exact (sexpr_eqb_eq x y). Qed.

(* the only normalisation the comparison performs: a read of a scalar localparam is replaced by the sized literal of its
   declaration, a size cast of a literal that fits its own width is folded into the literal ( N'(M'dV) -> N'dV ).  Where
   every such localparam is declared with that width and holds that value, two expressions the tie finds equal evaluate
   alike at every width and have one self-determined width; two assignment targets denote the same place of the same
   type. *)
Theorem C03_tr_tie_expr_sound ps te en :
  (forall x w v, PositiveMap.find x ps = Some (w, v) ->
     PositiveMap.find x te = Some (S.PBits w, []) /\ Z'.lookup en x = Z'.VZ v /\ 0 <= v < 2 ^ w) ->
  forall x y, sv_expr_eqb ps x y = true -> (forall Wd, Z'.eval te en Wd x = Z'.eval te en Wd y) /\ Z'.selfw te x = Z'.selfw te y.
Proof.
  intros Hps x y H. apply sexpr_eqb_eq in H.
  destruct (norm_sound_gen ps te en Hps x false) as (Ax & Bx & _). destruct (norm_sound_gen ps te en Hps y false) as (Ay & By & _).
  split; [intros Wd; rewrite <- Ax, <- Ay, H; reflexivity|rewrite <- Bx, <- By, H; reflexivity].
Qed.
Theorem C03_tr_tie_lhs_sound ps te en :
  (forall x w v, PositiveMap.find x ps = Some (w, v) ->
     PositiveMap.find x te = Some (S.PBits w, []) /\ Z'.lookup en x = Z'.VZ v /\ 0 <= v < 2 ^ w) ->
  forall x y, sv_lhs_eqb ps x y = true ->
  Z'.resolve te en x = Z'.resolve te en y /\ Z'.type_of te x = Z'.type_of te y /\ Z'.selfw te x = Z'.selfw te y.
Proof.
  intros Hps x y H. apply sexpr_eqb_eq in H.
  destruct (norm_sound_gen ps te en Hps x true) as (_ & Bx & _ & Rx). destruct (norm_sound_gen ps te en Hps y true) as (_ & By & _ & Ry).
  destruct (Rx eq_refl) as [Rx1 Rx2]. destruct (Ry eq_refl) as [Ry1 Ry2].
  split; [rewrite <- Rx1, <- Ry1, H; reflexivity|]. split; [rewrite <- Rx2, <- Ry2, H; reflexivity|rewrite <- Bx, <- By, H; reflexivity].
Qed.

Print Assumptions C03_tr_expr_sound.
Print Assumptions C03_tr_expr_bits_assignment_context.
Print Assumptions C03_tr_cond_sound.
Print Assumptions C03_tr_sexpr_eqb_eq.
Print Assumptions C03_tr_tie_expr_sound.
Print Assumptions C03_tr_tie_lhs_sound.
Print Assumptions C03_tr_assign_exec.
Print Assumptions C03_tr_assign_signal.
Print Assumptions C03_tr_assign_part_select.
Print Assumptions C03_tr_assign_bit.
Print Assumptions C03_tr_assign_temporary.
Print Assumptions C03_tr_if.
Print Assumptions C03_tr_comb_block_sound.
Print Assumptions C03_tr_ff_block_sound.
Print Assumptions C03_tr_block_invariant.
Print Assumptions C03_tr_block_start.
Print Assumptions C03_tr_stmt_preserves.

(* ---- non-vacuity: a concrete block, translated by tr_block and evaluated both ways ----
     s.a = InPort(8)  s.o = OutPort(8)  s.b = InPort(4)
     @update
     def blk():
       s.o @= 0
       for i in range(4):
         if s.a[i]:
           s.o[4:8] @= zext( s.b[0:2], 4 ) + 1                                                                      *)
Module Example.
Import TrExample.

(* what the model translator emits:
     always_comb begin : blk
       o = 8'd0;
       for ( int unsigned i = 1'd0; i < 3'd4; i += 1'd1 )
         if ( a[3'(i)] ) begin
           o[3'd7:3'd4] = { { 2 { 1'b0 } }, b[2'd1:2'd0] } + 4'd1;
         end
     end                                                                                                             *)
Example emitted :
  tr_block nm G blk =
  [ S.SBlocking (S.EId o_id) (S.ELit 8 0);
    S.SFor i_id (S.ELit 1 0) S.BLt (S.ELit 3 4) S.BAdd (S.ELit 1 1)
      [ S.SIf (S.EIndex (S.EId a_id) (S.ECast 3 (S.EId i_id)))
          [ S.SBlocking (S.ERange (S.EId o_id) 7 4)
              (S.EBin S.BAdd (S.EConcat [S.ERepl 2 (S.ELit 1 0); S.ERange (S.EId b_id) 1 0]) (S.ELit 4 1)) ] [] ] ].
Proof. vm_compute. reflexivity. Qed.

(* the block is in the domain of the theorems *)
Example accepted : blk_ok te nm G blk = true.
Proof. vm_compute. reflexivity. Qed.

(* both evaluations, for all 4096 inputs (a, b): RTL.Eval.run_block on the source block and SvEval.exec_list on the
   emitted block leave the same value in o *)
Definition sv_o (a b : Z) : Z :=
  let en := PositiveMap.add i_id (Z'.VZ 0) (PositiveMap.add b_id (Z'.VZ b) (PositiveMap.add o_id (Z'.VZ 0)
              (PositiveMap.add a_id (Z'.VZ a) (PositiveMap.empty Z'.value)))) in
  let x := X.exec_list te (tr_block nm G blk) (X.mkx en [] true) in
  match Z'.lookup (X.commit (X.x_pend x) (X.x_env x)) o_id with Z'.VZ u => u | _ => -1 end.
Definition rtl_o (a b : Z) : Z :=
  match run_block G 3 blk [a; 0; b] with Ok (o, _) => nth 1 o (-2) | Err _ => -3 end.
Example both_ways_one : rtl_o 0xA5 3 = 0x40 /\ sv_o 0xA5 3 = 0x40.
Proof. vm_compute. split; reflexivity. Qed.
Example both_ways_all :
  forallb (fun a => forallb (fun b => rtl_o a b =? sv_o a b) (map Z.of_nat (seq 0 16))) (map Z.of_nat (seq 0 256)) = true.
Proof. vm_compute. reflexivity. Qed.

(* the hypotheses of C03_tr_expr_sound are satisfiable: corresponding environments for this design inside the loop
   (i bound, 0 <= i < 4), and the theorem instantiated on the condition  s.a[i]  of the if *)
Example corr_example a b i : 0 <= i < 4 -> corr nm E1 te (st1 a b i) (en1 a b i).
Proof. exact (corr_ok a b i). Qed.
Example cond_accepted : sv_ok te nm E1 None (EIdx (ESig 0 []) (ELoop 0)) = true.
Proof. vm_compute. reflexivity. Qed.
Example cond_instance a b i v : 0 <= i < 4 -> eval G (st1 a b i) (EIdx (ESig 0 []) (ELoop 0)) = Ok v ->
  Z'.truthy (Z'.eval_self te (en1 a b i) (tr_expr nm E1 None (EIdx (ESig 0 []) (ELoop 0)))) = truthy v.
Proof. intros Hi. apply (C03_tr_cond_sound nm E1 te (st1 a b i) (en1 a b i) (corr_ok a b i Hi) _ v cond_accepted). Qed.

(* non-vacuity of C03_tr_comb_block_sound: the design of TrExample2 ( t = zext(s.b[0:2],4)+1 ; s.o @= 0 ;
   if s.a[0]: s.o[4:8] @= t  else: s.o[1] @= s.a[7] ) is plain, its block is accepted, the start states are related, and
   the theorem gives the value of  o  after the emitted block for ALL inputs a, b *)
Import TrExample2.
Example comb_plain : plain_ok te2 nm2 G 1 = true. Proof. vm_compute. reflexivity. Qed.
Example comb_accepted : comb_ok te2 nm2 1 G blk2 = true. Proof. vm_compute. reflexivity. Qed.
Example comb_emitted :
  tr_block nm2 G blk2 =
  [ S.SBlocking (S.EId t_id) (S.EBin S.BAdd (S.EConcat [S.ERepl 2 (S.ELit 1 0); S.ERange (S.EId b_id) 1 0]) (S.ELit 4 1));
    S.SBlocking (S.EId o_id) (S.ELit 8 0);
    S.SIf (S.EIndex (S.EId a_id) (S.ELit 3 0))
      [ S.SBlocking (S.ERange (S.EId o_id) 7 4) (S.EId t_id) ]
      [ S.SBlocking (S.EIndex (S.EId o_id) (S.ELit 3 1)) (S.EIndex (S.EId a_id) (S.ELit 3 7)) ] ].
Proof. vm_compute. reflexivity. Qed.
Example comb_instance a b st' : exec_block G blk2 (st2 a b) = Ok st' ->
  Z'.read_bits (X.x_env (X.exec_list te2 (tr_block nm2 G blk2) (X.mkx (en2 a b) [] true)))
               (Z'.resolve te2 (X.x_env (X.exec_list te2 (tr_block nm2 G blk2) (X.mkx (en2 a b) [] true))) (tr_sig nm2 1 []))
  = (sigv st' 1 / 2 ^ 0) mod 2 ^ 8.
Proof.
  intros Hex. destruct (C03_tr_comb_block_sound te2 nm2 G 1 blk2 _ st' _ comb_plain comb_accepted (inv_example false a b) Hex) as (_ & _ & Hs & _).
  exact (Hs 1%nat [] f8 eq_refl).
Qed.
Example comb_runs : exists st', exec_block G blk2 (st2 0xA5 3) = Ok st' /\ sigv st' 1 = 0x40.
Proof. eexists. split; vm_compute; reflexivity. Qed.

(* non-vacuity of C03_tr_ff_block_sound: the update_ff block of TrExample3
   ( t = s.b + 1 ; if s.a[0]: s.o <<= zext(t, 8)  else: s.o <<= s.a ) *)
Import TrExample3.
Example ff_accepted : ff_ok te2 nm2 1 G blk3 = true. Proof. vm_compute. reflexivity. Qed.
Example ff_emitted :
  tr_block nm2 G blk3 =
  [ S.SBlocking (S.EId t_id) (S.EBin S.BAdd (S.EId b_id) (S.ELit 4 1));
    S.SIf (S.EIndex (S.EId a_id) (S.ELit 3 0))
      [ S.SNonBlocking (S.EId o_id) (S.EConcat [S.ERepl 4 (S.ELit 1 0); S.EId t_id]) ]
      [ S.SNonBlocking (S.EId o_id) (S.EId a_id) ] ].
Proof. vm_compute. reflexivity. Qed.
Example ff_instance a b st' : exec_block G blk3 (st2 a b) = Ok st' ->
  let x' := X.exec_list te2 (tr_block nm2 G blk3) (X.mkx (en2 a b) [] true) in
  let enc := X.commit (X.x_pend x') (X.x_env x') in
  Z'.read_bits enc (Z'.resolve te2 enc (tr_sig nm2 1 [])) = (final_sig st' 1 / 2 ^ 0) mod 2 ^ 8.
Proof.
  intros Hex. destruct (C03_tr_ff_block_sound te2 nm2 G 1 blk3 _ st' _ comb_plain ff_accepted (inv_example true a b) Hex) as (_ & Hs & _).
  exact (Hs 1%nat [] f8 eq_refl).
Qed.
Example ff_runs : exists st', exec_block G blk3 (st2 0xA5 3) = Ok st' /\ final_sig st' 1 = 4 /\ sigv st' 1 = 0.
Proof. eexists. split; [|split]; vm_compute; reflexivity. Qed.
End Example.
