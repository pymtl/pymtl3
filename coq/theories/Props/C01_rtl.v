(* Props/C01_rtl.v — property C01 for update blocks inside the RTL language of RTL/Syntax.v:
   the frame / dep hypotheses of the scheduling theorems are THEOREMS about the syntactic footprints computed by
   RTL/Footprint.v, for the big-step semantics of RTL/Eval.v.  The theorems are restated here and closed by exact; the two
   examples at the end evaluate a concrete design.

   Covered: every constructor of RTL/Syntax.v —
     expressions  ESig ELit ESized EFree ECast EBin ECmp EInv ESlice EIdx EConcat EZext ESext ETrunc ERed EIf ETmp ELoop
     targets      LSig (signal or struct field with @=; whole signal with <<=)  LSlice  LIndex (with @=; constant,
                  loop-variable or computed index)  LTmp
     statements   SAssign  SIf (any nesting)  SFor (constant bounds, any nesting; the loop variable ranges over the loop)
   including the error outcomes of the evaluator (<<= to a field, a slice or a bit is not modelled: Eval.v raises for
   it, and the theorems then say that both runs raise).  Theorems without a letter belong to the group above them.
   (a)-(c) frame / dep and confluence (accepted_schedules_agree) with no footprint hypothesis;
   (d)-(e) strong dependence ("no latch") at block level and for the design evaluator RTL/Design.v;
   (f)     the fixed-point half: C01_rtl_accepted_schedule_fixed_point instantiates the fixed-point theorem of Sched with NO
           sdep hypothesis, for designs satisfying the boolean certificate rtl_fixed_ok, on every pass along which no
           block raises (a raising block returns the environment unchanged in rtl_run, so unconditional `sdep` is false;
           Sched/CondFixed.v is the conditional form of topo_fixed_point, also allowing declared writes larger than the
           real ones).
   Not covered: blocks outside the language (method calls, ...), for which the translator returns None; designs with a
   latch or with a block that reads back bits it writes itself fail the certificate of (f) (nsl_ok on the DECLARED reads). *)
From Coq Require Import ZArith List Bool Arith Lia Permutation.
Import ListNotations.
From PV Require Import Base.Prelude Bits.BitsSpec RTL.Syntax RTL.Eval Sched.Block Sched.Confluence Sched.Accept RTL.Footprint RTL.FootprintSound RTL.FlowSound RTL.Design RTL.DesignProofs Sched.CondFixed RTL.RtlFixed.
Open Scope Z_scope.

(* (a) frame: a block changes only bits inside its syntactic write footprint (now, and after the clock edge) *)
Theorem C01_rtl_exec_frame G b st st' : wf_declsb G = true -> st_ok st -> (forall s, nxtv st s = None) ->
  exec_block G b st = Ok st' ->
  forall s j, block_wr G b (s, j) = false ->
    Z.testbit (sigv st' s) j = Z.testbit (sigv st s) j /\ Z.testbit (final_sig st' s) j = Z.testbit (sigv st s) j.
Proof. exact (exec_frame G b st st'). Qed.

(* (b) dependence: the outcome (error class included) and every written bit depend only on the bits in the read
   footprint and on the previous values of the written bits *)
Theorem C01_rtl_exec_dep G b st1 st2 : wf_declsb G = true -> st_ok st1 ->
  rel (fun v => block_rd G b v || block_wr G b v) st1 st2 ->
  match exec_block G b st1, exec_block G b st2 with
  | Ok a, Ok c => forall s j, block_wr G b (s, j) = true ->
                    Z.testbit (sigv a s) j = Z.testbit (sigv c s) j /\
                    Z.testbit (final_sig a s) j = Z.testbit (final_sig c s) j
  | Err x, Err y => x = y
  | _, _ => False
  end.
Proof. exact (exec_dep G b st1 st2). Qed.

(* the same for the observable that the harness compares with the simulator (Eval.run_block on input vectors) *)
Theorem C01_rtl_run_block_dep G nsig b i1 i2 : wf_declsb G = true ->
  (forall s j, block_rd G b (s, j) || block_wr G b (s, j) = true -> Z.testbit (nth s i1 0) j = Z.testbit (nth s i2 0) j) ->
  match run_block G nsig b i1, run_block G nsig b i2 with
  | Ok (o1, _), Ok (o2, _) =>
      forall s j, (s < nsig)%nat -> block_wr G b (s, j) = true -> Z.testbit (nth s o1 0) j = Z.testbit (nth s o2 0) j
  | Err x, Err y => x = y
  | _, _ => False
  end.
Proof. exact (run_block_dep G nsig b i1 i2). Qed.

(* (c) a block of the language, as a Sched.Block.blk over single bits, satisfies frame and dep for its computed
   footprints ... *)
Theorem C01_rtl_frame G b : wf_declsb G = true -> frame (rtl_blk G b).
Proof. intros W. exact (rtl_frame G W b). Qed.
Theorem C01_rtl_dep G b : wf_declsb G = true -> dep (rtl_blk G b).
Proof. intros W. exact (rtl_dep G W b). Qed.

(* ... and for any DECLARED footprints (pymtl3's) that cover the computed ones *)
Theorem C01_rtl_blk_footprints G b (rdD wrD : fp) : wf_declsb G = true ->
  covers rdD (reads_d G b) = true -> covers wrD (writes_d G b) = true ->
  frame (mkBlk (mem_fp rdD) (mem_fp wrD) (rtl_run G b)) /\ dep (mkBlk (mem_fp rdD) (mem_fp wrD) (rtl_run G b)).
Proof. exact (rtl_blk_footprints G b rdD wrD). Qed.

Theorem C01_rtl_covers_sound D C : covers D C = true -> forall v, mem_fp C v = true -> mem_fp D v = true.
Proof. exact (covers_sound D C). Qed.

(* end-to-end: Sched.Accept.accepted_schedules_agree with NO footprint hypothesis — for a design all of whose blocks
   are in the language (progs i = translated body of block i; d = observed design with pymtl3's declared footprints),
   two observed schedules accepted by sched_ok compute the same value for every bit *)
Theorem C01_rtl_accepted_schedules_agree (G : decls) (progs : nat -> list stmt) (d : design) :
  wf_declsb G = true -> wf_design d = true -> sw_ok d = true -> rtl_cover_ok G progs d = true ->
  forall o1 o2, sched_ok d o1 = true -> sched_ok d o2 = true ->
  forall e, eqe (run_list (Bd d (fun i => rtl_run G (progs i))) o1 e)
                (run_list (Bd d (fun i => rtl_run G (progs i))) o2 e).
Proof. exact (rtl_accepted_schedules_agree G progs d). Qed.

(* the same when only some blocks are in the language (inl i): footprint hypotheses remain only for the others *)
Theorem C01_rtl_mixed_schedules_agree (G : decls) (progs : nat -> list stmt) (inl : nat -> bool)
        (R0 : nat -> env bit bool -> env bit bool) (d : design) :
  wf_declsb G = true -> wf_design d = true -> sw_ok d = true -> mixed_cover_ok G progs inl d = true ->
  (forall i, In i (ids d) -> inl i = false -> frame (Bd d R0 i) /\ dep (Bd d R0 i)) ->
  forall o1 o2, sched_ok d o1 = true -> sched_ok d o2 = true ->
  forall e, eqe (run_list (Bd d (mixed_run G progs inl R0)) o1 e) (run_list (Bd d (mixed_run G progs inl R0)) o2 e).
Proof. exact (rtl_mixed_schedules_agree G progs inl R0 d). Qed.

(* (d) no latch / strong dependence: two states that agree on the EXPOSED reads of a block (reads of bits the block has
   not itself definitely written before, on every path) give the same outcome and the same value for every definitely
   written bit (must_d), whatever those bits held before.  Whole language, flow-sensitive through if / for. *)
Theorem C01_rtl_exec_sdep G b (P : bit -> bool) st1 st2 : wf_declsb G = true -> st_ok st1 ->
  xsub (xreads_d G b) P -> rel2 P [] st1 st2 ->
  out_rel2 P (must_d G b) (exec_block G b st1) (exec_block G b st2).
Proof. exact (exec_sdep G b P st1 st2). Qed.

(* (e) whole designs (RTL/Design.v): if the certificate det_pass / det_tick accepts, the values after
   sim_eval_combinational / sim_tick are a function of the bits in Q (inputs and registers) only — stale values of the
   wires do not matter, and an exception is raised for both environments or for neither *)
Theorem C01_rtl_sim_eval_comb_det (D : rdesign) Q Q1 e1 e2 : wf_shapes (rd_shapes D) = true ->
  det_pass (rd_decls D) (rd_comb D) Q = Some Q1 -> eagree (mem_fp Q) e1 e2 ->
  match sim_eval_comb D e1, sim_eval_comb D e2 with
  | Ok a, Ok c => eagree (mem_fp Q1) a c
  | Err x, Err y => x = y
  | _, _ => False
  end.
Proof. exact (sim_eval_comb_det D Q Q1 e1 e2). Qed.

Theorem C01_rtl_sim_tick_det (D : rdesign) Q Q1 Q2 e1 e2 : wf_shapes (rd_shapes D) = true ->
  det_tick D Q = Some (Q1, Q2) -> eagree (mem_fp Q) e1 e2 ->
  match sim_tick_obs D e1, sim_tick_obs D e2 with
  | Ok (a1, a3), Ok (c1, c3) => eagree (mem_fp Q1) a1 c1 /\ eagree (mem_fp Q2) a3 c3
  | Err x, Err y => x = y
  | _, _ => False
  end.
Proof. exact (sim_tick_obs_det D Q Q1 Q2 e1 e2). Qed.

(* (f) the fixed-point half of C01 with NO sdep hypothesis.  d carries the declared footprints, progs the translated
   bodies; the certificate rtl_fixed_ok (boolean) says: declared footprints cover the proved ones, every block assigns
   signals with @= only, has no latch (everything it may write it definitely writes) and its exposed reads are declared
   reads.  Then for every accepted schedule o and every environment e on which no block raises along the pass:
   afterwards every block is at its fixed point, running the whole pass again changes no bit, and every other
   accepted schedule computes the same environment.  (Sched/CondFixed.v: conditional form of topo_fixed_point; a
   raising block stops the simulation, nothing is claimed for such passes.) *)
Theorem C01_rtl_accepted_schedule_fixed_point (G : decls) (progs : nat -> list stmt) (d : design) :
  wf_declsb G = true -> wf_design d = true -> sw_ok d = true -> nsl_ok d = true -> noinv_ok d = true ->
  rtl_fixed_ok G progs d = true ->
  forall o, sched_ok d o = true -> forall e, rtl_no_raise G progs d o e ->
    (forall i, In i (ids d) -> fixed_under (Bd d (rtl_R G progs)) i (run_list (Bd d (rtl_R G progs)) o e)) /\
    eqe (run_list (Bd d (rtl_R G progs)) o (run_list (Bd d (rtl_R G progs)) o e)) (run_list (Bd d (rtl_R G progs)) o e) /\
    (forall o2, sched_ok d o2 = true -> eqe (run_list (Bd d (rtl_R G progs)) o2 e) (run_list (Bd d (rtl_R G progs)) o e)).
Proof. exact (rtl_accepted_schedule_fixed_point G progs d). Qed.

(* the table computed from signal shapes (first field most significant) is a legal declaration table *)
Theorem C01_rtl_decls_of_wf T : wf_shapes T = true -> wf_declsb (decls_of T) = true.
Proof. exact (decls_of_wf T). Qed.

(* non-vacuity: a three-block design over a struct signal and two vectors —
     b0:  s1[0:4] @= s0.a[2:6]                  (s0 : struct { a : Bits8 ; b : Bits4 })
     b1:  for i in range(4): s1[4+i] @= s0.b[3-i] ^ s2[i]
     b2:  if s1[0]: s3 @= zext(s1, 12) else: s3 @= s0                       (reads what b0 and b1 write)
   the declared reads of the loop block are the whole field s0.b and the whole s2, as pymtl3 gives them (its declared
   write is exactly the four bits it writes); both orders b0 b1 b2 / b1 b0 b2 are accepted and therefore agree *)
Definition exT : sigshapes := [ShStruct [ShBits 8; ShBits 4]; ShBits 8; ShBits 4; ShBits 12].
Definition exProgs (i : nat) : list stmt :=
  match i with
  | 0%nat => [SAssign 0%nat (LSlice 1%nat [] (ELit 0) (ELit 4)) (ESlice (ESig 0%nat [0%nat]) (ELit 2) (ELit 6)) true]
  | 1%nat => [SFor 0%nat 0 4 1
               [SAssign 1%nat (LIndex 1%nat [] (EBin Add (ELit 4) (ELoop 0%nat)))
                        (EBin Xor (EIdx (ESig 0%nat [1%nat]) (EBin Sub (ELit 3) (ELoop 0%nat))) (EIdx (ESig 2%nat []) (ELoop 0%nat))) true]]
  | 2%nat => [SIf 2%nat (EIdx (ESig 1%nat []) (ELit 0))
                [SAssign 3%nat (LSig 3%nat []) (EZext 12 (ESig 1%nat [])) true]
                [SAssign 4%nat (LSig 3%nat []) (ESig 0%nat []) true]]
  | _ => []
  end.
Definition exD : design :=
  mkDesign 3
    (fun i => match i with 0%nat => [(0%nat, 6, 10)] | 1%nat => [(0%nat, 0, 4); (2%nat, 0, 4)] | 2%nat => [(1%nat, 0, 8); (0%nat, 0, 12)] | _ => [] end)
    (fun i => match i with 0%nat => [(1%nat, 0, 4)] | 1%nat => [(1%nat, 4, 8)] | 2%nat => [(3%nat, 0, 12)] | _ => [] end)
    [].

Example C01_rtl_nonvacuous :
  wf_shapes exT = true /\ wf_design exD = true /\ sw_ok exD = true /\ rtl_cover_ok (decls_of exT) exProgs exD = true /\
  sched_ok exD [0; 1; 2]%nat = true /\ sched_ok exD [1; 0; 2]%nat = true /\
  reads_of exT (exProgs 1%nat) = [(0%nat, 3, 4); (2%nat, 0, 1); (0%nat, 2, 3); (2%nat, 1, 2); (0%nat, 1, 2); (2%nat, 2, 3); (0%nat, 0, 1); (2%nat, 3, 4)] /\
  writes_of exT (exProgs 1%nat) = [(1%nat, 4, 5); (1%nat, 5, 6); (1%nat, 6, 7); (1%nat, 7, 8)].
Proof. vm_compute. repeat split; reflexivity. Qed.

(* non-vacuity of (f): the design exD above is latch-free, satisfies the whole certificate, its order 0 1 2 is accepted,
   and no block raises along that pass on the all-zero environment and on the all-one environment *)
Example C01_rtl_fixed_point_nonvacuous :
  wf_declsb (decls_of exT) = true /\ wf_design exD = true /\ sw_ok exD = true /\ nsl_ok exD = true /\ noinv_ok exD = true /\
  rtl_fixed_ok (decls_of exT) exProgs exD = true /\ sched_ok exD [0; 1; 2]%nat = true /\
  rtl_no_raise (decls_of exT) exProgs exD [0; 1; 2]%nat (fun _ => false) /\
  rtl_no_raise (decls_of exT) exProgs exD [0; 1; 2]%nat (fun _ => true).
Proof.
  destruct C01_rtl_nonvacuous as (Ws & Wd & Sw & _ & So & _).
  split; [exact (decls_of_wf exT Ws)|]. split; [exact Wd|]. split; [exact Sw|].
  split; [reflexivity|]. split; [reflexivity|]. split; [reflexivity|]. split; [exact So|].
  split; apply rtl_no_raiseb_sound; reflexivity.
Qed.

Print Assumptions C01_rtl_exec_frame.
Print Assumptions C01_rtl_exec_dep.
Print Assumptions C01_rtl_run_block_dep.
Print Assumptions C01_rtl_frame.
Print Assumptions C01_rtl_dep.
Print Assumptions C01_rtl_blk_footprints.
Print Assumptions C01_rtl_covers_sound.
Print Assumptions C01_rtl_accepted_schedules_agree.
Print Assumptions C01_rtl_mixed_schedules_agree.
Print Assumptions C01_rtl_exec_sdep.
Print Assumptions C01_rtl_sim_eval_comb_det.
Print Assumptions C01_rtl_sim_tick_det.
Print Assumptions C01_rtl_accepted_schedule_fixed_point.
Print Assumptions C01_rtl_fixed_point_nonvacuous.
Print Assumptions C01_rtl_decls_of_wf.
Print Assumptions C01_rtl_nonvacuous.
