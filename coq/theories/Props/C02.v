(* Props/C02.v — property C02: within a cycle every reader runs after its writer, in every scheduler.
   Statements, each closed by exact of a theorem of Sched/, their Print Assumptions, and an evaluated non-vacuity example. *)
From Coq Require Import ZArith List Bool Arith Lia Permutation.
Import ListNotations.
From PV Require Import Sched.Block Sched.Confluence Sched.Accept Sched.DagAccept Sched.AcceptComplete.

(* two packed bit ranges intersect iff some bit lies in both (whole signals, fields, nested fields, slices are all ranges) *)
Theorem C02_overlap_iff_shared_bit a b : wf_ivl a = true -> wf_ivl b = true ->
  (ivl_overlap a b = true <-> exists v, in_ivl v a = true /\ in_ivl v b = true).
Proof. exact (ivl_overlap_spec a b). Qed.
Theorem C02_footprints_overlap_iff f g : wf_fp f = true -> wf_fp g = true ->
  (fp_overlap f g = true <-> exists v, mem_fp f v = true /\ mem_fp g v = true).
Proof. exact (fp_overlap_spec f g). Qed.

(* the acceptor run on the observed execution order of an evaluation pass *)
Theorem C02_accepted_pass_orders_readers_after_writers d order : sched_ok d order = true ->
  NoDup order /\ Permutation order (ids d) /\
  (forall a b v, In a (ids d) -> In b (ids d) -> a <> b -> writes_bit d a v -> reads_bit d b v ->
                 pair_in (expl d) b a = false -> (pos order a < pos order b)%nat) /\
  (forall x y, pair_in (expl d) x y = true -> (pos order x < pos order y)%nat).
Proof. exact (sched_ok_sound d order). Qed.

(* and conversely: a pass that meets the property's ordering conditions IS accepted — on well-formed observed footprints the
   acceptor decides the property exactly, so it raises no alarm on a schedule where the property holds *)
Theorem C02_acceptor_decides_the_ordering_conditions d order : wf_design d = true ->
  (sched_ok d order = true <->
   NoDup order /\ Permutation order (ids d) /\
   (forall a b v, In a (ids d) -> In b (ids d) -> a <> b -> writes_bit d a v -> reads_bit d b v ->
                  pair_in (expl d) b a = false -> (pos order a < pos order b)%nat) /\
   (forall x y, pair_in (expl d) x y = true -> (pos order x < pos order y)%nat)).
Proof. exact (sched_ok_iff d order). Qed.

(* the acceptor run on pymtl3's CONSTRAINT GRAPH G: in every schedule the graph allows (every linear extension of G, whatever
   the tie-break), readers run after writers unless an explicit constraint inverts the pair, and explicit constraints hold *)
Theorem C02_accepted_graph_orders_readers_after_writers_in_every_schedule d G paths : dag_ok d G paths = true ->
  forall o, perm_b d o = true -> lin_ext_b (Gb G) o = true ->
  (forall a b v, In a (ids d) -> In b (ids d) -> a <> b -> writes_bit d a v -> reads_bit d b v ->
                 pair_in (expl d) b a = false -> (pos o a < pos o b)%nat) /\
  (forall x y, pair_in (expl d) x y = true -> (pos o x < pos o y)%nat).
Proof. exact (dag_orders_readers_after_writers d G paths). Qed.

Theorem C02_lin_ext_checker E l : lin_ext_b E l = true <-> lin_ext E l.
Proof. exact (lin_ext_b_spec E l). Qed.
Theorem C02_each_block_once d order : perm_b d order = true -> NoDup order /\ Permutation order (ids d).
Proof. exact (proj1 (perm_b_spec d order)). Qed.

(* non-vacuity: writer of bits [0,5) of signal 0, reader of bits [3,8): accepted only in writer-first order;
   with an explicit inversion only reader-first is accepted; an order that runs a block twice is rejected *)
Definition two (ex : list (nat * nat)) : design :=
  mkDesign 2 (fun i => match i with 1%nat => [(0%nat, 3%Z, 8%Z)] | _ => [] end)
             (fun i => match i with 0%nat => [(0%nat, 0%Z, 5%Z)] | _ => [(1%nat, 0%Z, 1%Z)] end) ex.
Example C02_nonvacuous : sched_ok (two []) [0;1]%nat = true /\ sched_ok (two []) [1;0]%nat = false /\
  sched_ok (two [(1,0)]%nat) [1;0]%nat = true /\ sched_ok (two [(1,0)]%nat) [0;1]%nat = false /\ sched_ok (two []) [0;0]%nat = false.
Proof. vm_compute. repeat split. Qed.

Print Assumptions C02_overlap_iff_shared_bit. Print Assumptions C02_footprints_overlap_iff.
Print Assumptions C02_accepted_pass_orders_readers_after_writers. Print Assumptions C02_lin_ext_checker.
Print Assumptions C02_each_block_once. Print Assumptions C02_accepted_graph_orders_readers_after_writers_in_every_schedule.
Print Assumptions C02_acceptor_decides_the_ordering_conditions.
