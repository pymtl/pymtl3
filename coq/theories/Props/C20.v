(* Props/C20.v — property C20: FL, CL and RTL example processors (and checksum units) agree with the ISA.
   ONLY statements, each closed by `exact`/`apply` and followed by Print Assumptions; the three examples are closed
   by evaluation.

   Checksum half (full proof): cksum_fl mirrors ChecksumFL.checksum, cksum_rtl mirrors the ChecksumRTL StepUnit
   chain (Lib/Cksum.v); harness/c20.py checks on every run that the real FL function and the simulated CL and RTL
   components return what these functions return.
   Processor half (PARTIAL): TinyRV0.step/run is the ISA of tinyrv0-isa.md written from the document
   (Lib/TinyRV0.v).  Proved: encoder/decoder round trip, x0, determinism, append-only output.  NOT proved: that
   ProcCL / the 5-stage ProcRTL refine `step` — that rests on the differential runs of harness/c20.py, where
   `run` is evaluated inside Coq on the very words the processors executed and compared with what they did. *)
From PV Require Import Base.Prelude Lib.Cksum Lib.CksumProofs Lib.TinyRV0 Lib.TinyRV0Proofs.
Open Scope Z_scope.

(* checksum: FL = RTL = specification, for ALL inputs *)
(* every 8-tuple of 16-bit words: RTL chain (32-bit, & 0xffff) = FL (16-bit wrap-around) = the two running sums
   mod 65536 combined as sum2 * 65536 + sum1 = the closed form *)
Theorem C20_cksum_all_8tuples w0 w1 w2 w3 w4 w5 w6 w7 :
  words16 [w0; w1; w2; w3; w4; w5; w6; w7] ->
  cksum_rtl [w0; w1; w2; w3; w4; w5; w6; w7] = cksum_fl [w0; w1; w2; w3; w4; w5; w6; w7] /\
  cksum_fl [w0; w1; w2; w3; w4; w5; w6; w7] = cksum_spec [w0; w1; w2; w3; w4; w5; w6; w7] /\
  cksum_spec [w0; w1; w2; w3; w4; w5; w6; w7] = cksum_closed8 w0 w1 w2 w3 w4 w5 w6 w7.
Proof. exact (cksum_all_8tuples w0 w1 w2 w3 w4 w5 w6 w7). Qed.
Print Assumptions C20_cksum_all_8tuples.

(* in fact for any number of words and any integer word values *)
Theorem C20_cksum_rtl_eq_fl ws : cksum_rtl ws = cksum_fl ws.
Proof. exact (cksum_rtl_fl ws). Qed.
Print Assumptions C20_cksum_rtl_eq_fl.

Theorem C20_cksum_fl_eq_spec ws : cksum_fl ws = cksum_spec ws.
Proof. exact (cksum_fl_spec ws). Qed.
Print Assumptions C20_cksum_fl_eq_spec.

Theorem C20_cksum_is_32bit ws : 0 <= cksum_spec ws < 4294967296.
Proof. exact (cksum_spec_range ws). Qed.
Print Assumptions C20_cksum_is_32bit.

(* word i of the list is bits [16i, 16i+16) of the message words_to_b128 builds; b128_to_words / the RTL slices
   recover exactly the list *)
Theorem C20_cksum_words_order ws i : ws <> [] -> words16 ws -> (i < length ws)%nat ->
  word_of (snd (pack_words ws)) (Z.of_nat i) = nth i ws 0.
Proof. exact (cksum_words_order ws i). Qed.
Print Assumptions C20_cksum_words_order.

Theorem C20_cksum_unpack_pack w0 w1 w2 w3 w4 w5 w6 w7 :
  words16 [w0; w1; w2; w3; w4; w5; w6; w7] ->
  fst (pack_words [w0; w1; w2; w3; w4; w5; w6; w7]) = 128 /\
  unpack_words (snd (pack_words [w0; w1; w2; w3; w4; w5; w6; w7])) = [w0; w1; w2; w3; w4; w5; w6; w7].
Proof. exact (unpack_pack8 w0 w1 w2 w3 w4 w5 w6 w7). Qed.
Print Assumptions C20_cksum_unpack_pack.

(* non-vacuity: the tutorial's own vector, and the hypothesis words16 is satisfiable *)
Example C20_cksum_example :
  words16 [1; 2; 3; 4; 5; 6; 7; 8] /\ cksum_fl [1; 2; 3; 4; 5; 6; 7; 8] = 7864356 (* 0x00780024 *) /\
  cksum_rtl [65535; 65535; 65535; 65535; 65535; 65535; 65535; 65535] = 4292673528 (* 0xffdcfff8 *).
Proof.
  split; [|split; reflexivity].
  unfold words16. repeat (apply Forall_cons; [unfold word16, M16; lia|]). apply Forall_nil.
Qed.

(* TinyRV0 ISA model *)
(* the encoder (compared with the repo's assembler on every generated program) and the decoder `step` uses
   are inverse on every instruction form and every field value *)
Theorem C20_decode_encode i : wf_instr i -> decode (encode i) = Some i.
Proof. exact (decode_encode i). Qed.
Print Assumptions C20_decode_encode.

Theorem C20_encode_is_32bit i : wf_instr i -> 0 <= encode i < 4294967296.
Proof. exact (encode_range i). Qed.
Print Assumptions C20_encode_is_32bit.

Theorem C20_encode_injective i j : wf_instr i -> wf_instr j -> encode i = encode j -> i = j.
Proof. exact (encode_injective i j). Qed.
Print Assumptions C20_encode_injective.

(* x0 is hard-wired to zero in every state reachable from any loaded program with any inputs *)
Theorem C20_x0_always_zero sections inputs n : rget (regs (run n (init_state sections inputs))) 0 = 0.
Proof. exact (x0_always_zero sections inputs n). Qed.
Print Assumptions C20_x0_always_zero.

Theorem C20_x0_invariant s s' : step s = Some s' -> rget (regs s) 0 = 0 -> rget (regs s') 0 = 0.
Proof. exact (step_x0 s s'). Qed.
Print Assumptions C20_x0_invariant.

Theorem C20_registers_stay_32bit n s : regs_wf s -> regs_wf (run n s).
Proof. exact (run_regs_wf n s). Qed.
Print Assumptions C20_registers_stay_32bit.

(* little-endian memory: byte k of a stored word sits at address a+k; a load returns what was stored;
   other words are untouched *)
Theorem C20_little_endian m a v : 0 <= a ->
  mem_byte (store4 m a v) a = v mod 256 /\
  mem_byte (store4 m a v) (a + 1) = (v / 256) mod 256 /\
  mem_byte (store4 m a v) (a + 2) = (v / 65536) mod 256 /\
  mem_byte (store4 m a v) (a + 3) = (v / 16777216) mod 256.
Proof. exact (store4_bytes m a v). Qed.
Print Assumptions C20_little_endian.

Theorem C20_load_after_store m a v : 0 <= a -> load4 (store4 m a v) a = v mod 4294967296.
Proof. exact (load4_store4_same m a v). Qed.
Print Assumptions C20_load_after_store.

Theorem C20_store_frame m a v a' : 0 <= a -> 0 <= a' -> (a' + 3 < a \/ a + 3 < a') ->
  load4 (store4 m a v) a' = load4 m a'.
Proof. exact (load4_store4_disjoint m a v a'). Qed.
Print Assumptions C20_store_frame.

(* determinism: an execution that has stopped has exactly one possible final state, `run` computes it once
   the fuel suffices, and more fuel changes nothing *)
Theorem C20_final_state_unique s a b : steps s a -> halted a = true -> steps s b -> halted b = true -> a = b.
Proof. exact (final_state_unique s a b). Qed.
Print Assumptions C20_final_state_unique.

Theorem C20_run_computes_final_state s n a : halted (run n s) = true -> steps s a -> halted a = true -> a = run n s.
Proof. exact (run_final s n a). Qed.
Print Assumptions C20_run_computes_final_state.

Theorem C20_run_fuel_irrelevant s n k : halted (run n s) = true -> run (n + k) s = run n s.
Proof. exact (run_halted_stable s n k). Qed.
Print Assumptions C20_run_fuel_irrelevant.

(* the sequence delivered to the manager only grows by appending: what is observed after n steps is a prefix
   of what is observed after n+k steps; one step appends at most one value *)
Theorem C20_outputs_prefix n k s : exists l, outputs (run (n + k) s) = outputs (run n s) ++ l.
Proof. exact (outputs_prefix n k s). Qed.
Print Assumptions C20_outputs_prefix.

Theorem C20_step_appends_at_most_one s s' : step s = Some s' ->
  outputs s' = outputs s \/ exists v, outputs s' = outputs s ++ [v].
Proof. exact (step_outputs s s'). Qed.
Print Assumptions C20_step_appends_at_most_one.

(* accelerator registers 0x7E0-0x7FF (instance: the NullXcel the ex03 harness attaches; modelled from NullXcel.py):
   a write followed by a read returns the written value, whatever the two register numbers; nothing else changes;
   only accelerator writes change the accelerator *)
Theorem C20_xcel_write_then_read s c1 rs1 c2 rd :
  is_xcelreg c1 = true -> is_xcelreg c2 = true ->
  exists s1 s2, exec (CSRW c1 rs1) s = Some s1 /\ exec (CSRR rd c2) s1 = Some s2 /\
    regs s1 = regs s /\ mem s1 = mem s /\ outputs s1 = outputs s /\
    regs s2 = rset (regs s) rd (wrap32 (rget (regs s) rs1)) /\
    mem s2 = mem s /\ outputs s2 = outputs s /\ mngr2proc s2 = mngr2proc s /\ xcel s2 = wrap32 (rget (regs s) rs1).
Proof. exact (xcel_write_then_read s c1 rs1 c2 rd). Qed.
Print Assumptions C20_xcel_write_then_read.

Theorem C20_xcel_frame i s s' : exec i s = Some s' ->
  xcel s' = xcel s \/ exists c rs1, i = CSRW c rs1 /\ is_xcelreg c = true /\ xcel s' = wrap32 (rget (regs s) rs1).
Proof. exact (exec_xcel_frame i s s'). Qed.
Print Assumptions C20_xcel_frame.

Example C20_xcel_example :
  is_xcelreg 2016 = true /\ is_xcelreg 2047 = true /\
  let prog := map encode [CSRR 1 CSR_MNGR2PROC; CSRW 2025 1; CSRR 2 2047; ADD 3 1 2; CSRW CSR_PROC2MNGR 3] in
  outputs (run 100 (init_state [(512, prog)] [17])) = [34].
Proof. split; [reflexivity|]. split; [reflexivity|]. vm_compute. reflexivity. Qed.

(* non-vacuity: a well-formed instruction of every format, a program that runs to completion, outputs and memory *)
Example C20_isa_example :
  wf_instr (BNE 3 4 (-8)) /\ wf_instr (SW 2 3 2047) /\ wf_instr (CSRR 31 CSR_MNGR2PROC) /\
  let prog := map encode [CSRR 1 CSR_MNGR2PROC; ADDI 2 1 5; CSRW CSR_PROC2MNGR 2; ADDI 3 0 1; ADDI 4 0 13;
                          SLL 3 3 4; SW 2 3 4; LW 5 3 4; CSRW CSR_PROC2MNGR 5] in
  let s := run 100 (init_state [(512, prog)] [7]) in
  halted s = true /\ pc s = 548 /\ outputs s = [12; 12] /\ load4 (mem s) 8196 = 12 /\ regs_wf s.
Proof.
  split; [cbn [wf_instr]; unfold is_reg, is_immb; lia|]. split; [cbn [wf_instr]; unfold is_reg, is_imm12; lia|].
  split; [cbn [wf_instr]; unfold is_reg, is_csr, CSR_MNGR2PROC; lia|].
  cbv zeta. split; [vm_compute; reflexivity|]. split; [vm_compute; reflexivity|].
  split; [vm_compute; reflexivity|]. split; [vm_compute; reflexivity|].
  apply run_regs_wf. apply init_regs_wf.
Qed.
