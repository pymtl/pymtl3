(* Props/C05.v — property C05: slices, concat, extension, reduce, clog2 address exactly the named bits.
   ONLY statements closed by `exact`/`apply`, each followed by Print Assumptions.
   The hypotheses are those of the property text; where a proof discards one (`intros _`) the theorem cited holds without it. *)
From PV Require Import Base.Prelude Bits.BitsSpec Bits.BitsLemmas Bits.SpecFacts Gen.BitsGen Bits.BitsProofs
                       Bits.Helpers Gen.HelpersGen Bits.HelpersProofs Bits.SliceRAW.
Open Scope Z_scope.

(* the generated __getitem__/__setitem__ equal the specification on EVERY index (valid or not) *)
Theorem C05_getitem n u nx i : wfn n -> inrange n u -> bits_getitem n u nx i = spec_getitem n u i.
Proof. intros; apply getitem_ok; assumption. Qed.
Theorem C05_setitem n u nx i v : wfn n -> inrange n u -> owf v -> bits_setitem n u nx i v = spec_setitem n u nx i v.
Proof. intros; apply setitem_ok; assumption. Qed.

(* and the specification is the bit-level definition *)
Theorem C05_slice_reads_named_bits n u lo hi :
  wfn n -> inrange n u -> 0 <= lo < hi -> hi <= n ->
  spec_getitem n u (ISlice (Some lo) (Some hi) None) = Ok (hi - lo, (u / 2 ^ lo) mod 2 ^ (hi - lo))
  /\ inrange (hi - lo) ((u / 2 ^ lo) mod 2 ^ (hi - lo))
  /\ forall i, 0 <= i < hi - lo -> Z.testbit ((u / 2 ^ lo) mod 2 ^ (hi - lo)) i = Z.testbit u (lo + i).
Proof. intros _ _. exact (getitem_slice_valid n u lo hi). Qed.
Theorem C05_slice_invalid_is_error n u s e st :
  let lo := bound s 0 in let hi := bound e n in
  ~ (0 <= lo < hi /\ hi <= n) \/ step_trivial st = false ->
  spec_getitem n u (ISlice s e st) = Err EIndex.
Proof. exact (getitem_slice_invalid n u s e st). Qed.
Theorem C05_bit_read n u k : wfn n -> inrange n u ->
  (0 <= k < n -> spec_getitem n u (IInt k) = Ok (1, b2z (Z.testbit u k))) /\
  (~ 0 <= k < n -> spec_getitem n u (IInt k) = Err EIndex).
Proof. exact (getitem_bit n u k). Qed.
Theorem C05_slice_write_frames n u nx lo hi v r :
  wfn n -> inrange n u -> owf v -> 0 <= lo < hi -> hi <= n ->
  spec_setitem n u nx (ISlice (Some lo) (Some hi) None) v = Ok r ->
  exists w u', r = (n, u', nx) /\ spec_store (hi - lo) v = Ok w /\ inrange n u' /\
    forall i, 0 <= i ->
      Z.testbit u' i = if (lo <=? i) && (i <? hi) then Z.testbit w (i - lo) else Z.testbit u i.
Proof. exact (setitem_slice_frame n u nx lo hi v r). Qed.
Theorem C05_slice_write_invalid_is_error n u nx s e st v :
  let lo := bound s 0 in let hi := bound e n in
  ~ (0 <= lo < hi /\ hi <= n) \/ step_trivial st = false ->
  spec_setitem n u nx (ISlice s e st) v = Err EIndex.
Proof. exact (setitem_slice_invalid n u nx s e st v). Qed.
Theorem C05_slice_write_wrong_width_is_error n u nx lo hi m b :
  0 <= lo < hi -> hi <= n -> m <> hi - lo ->
  spec_setitem n u nx (ISlice (Some lo) (Some hi) None) (OBits m b) = Err EValue.
Proof. exact (setitem_slice_width_mismatch n u nx lo hi m b). Qed.
Theorem C05_bit_write_frames n u nx k v r :
  wfn n -> inrange n u -> 0 <= k < n ->
  spec_setitem n u nx (IInt k) v = Ok r ->
  exists w u', r = (n, u', nx) /\ (w = 0 \/ w = 1) /\ inrange n u' /\
    forall i, 0 <= i -> Z.testbit u' i = if i =? k then Z.odd w else Z.testbit u i.
Proof. intros _. exact (setitem_bit_frame n u nx k v r). Qed.

(* read after write, on the generated code's specification: after a valid slice write [lo,hi) := b, EVERY valid slice
   [lo2,hi2) reads the written bits inside the window and the old bits outside it; the same window reads back b itself;
   a disjoint window reads what it read before the write *)
Theorem C05_slice_read_after_write n u nx lo hi b r lo2 hi2 :
  wfn n -> inrange n u -> inrange (hi - lo) b -> 0 <= lo < hi -> hi <= n ->
  spec_setitem n u nx (ISlice (Some lo) (Some hi) None) (OBits (hi - lo) b) = Ok r ->
  0 <= lo2 < hi2 -> hi2 <= n ->
  exists u', r = (n, u', nx) /\ inrange n u' /\
  exists v, spec_getitem n u' (ISlice (Some lo2) (Some hi2) None) = Ok (hi2 - lo2, v) /\
    inrange (hi2 - lo2) v /\
    (forall i, 0 <= i < hi2 - lo2 ->
       Z.testbit v i = if (lo <=? lo2 + i) && (lo2 + i <? hi) then Z.testbit b (lo2 + i - lo)
                       else Z.testbit u (lo2 + i)) /\
    (lo2 = lo -> hi2 = hi -> v = b) /\
    (hi2 <= lo \/ hi <= lo2 -> spec_getitem n u (ISlice (Some lo2) (Some hi2) None) = Ok (hi2 - lo2, v)).
Proof. exact (slice_read_after_write n u nx lo hi b r lo2 hi2). Qed.

Example C05_read_after_write_nonvacuous :
  (* Bits8(0xab)[2:6] = 0b0101 : 0xab = 1010_1011 -> 1001_0111 = 0x97; reading [2:6] gives 5, [6:8] still 2, [0:4] = 7 *)
  bits_setitem 8 171 0 (ISlice (Some 2) (Some 6) None) (OBits 4 5) = Ok (8, 151, 0)
  /\ bits_getitem 8 151 0 (ISlice (Some 2) (Some 6) None) = Ok (4, 5)
  /\ bits_getitem 8 151 0 (ISlice (Some 6) (Some 8) None) = bits_getitem 8 171 0 (ISlice (Some 6) (Some 8) None)
  /\ bits_getitem 8 151 0 (ISlice (Some 0) (Some 4) None) = Ok (4, 7).
Proof. vm_compute. repeat split. Qed.

(* helpers *)
Theorem C05_concat xs : Forall wfpair xs -> 0 < fst (concat_spec xs) < 1024 -> h_concat xs = Ok (concat_spec xs).
Proof. exact (concat_ok xs). Qed.
Theorem C05_concat_width xs : fst (concat_spec xs) = fold_right Z.add 0 (map fst xs).
Proof. exact (concat_width_sum xs). Qed.
Theorem C05_concat_too_wide xs : Forall wfpair xs -> 1024 <= fst (concat_spec xs) -> h_concat xs = Err EValue.
Proof. exact (concat_too_wide xs). Qed.
Theorem C05_trunc n u w : 0 < w <= n -> n < 1024 -> h_trunc n u w false = Ok (w, u mod 2 ^ w).
Proof. exact (trunc_ok n u w). Qed.
Theorem C05_trunc_guard n u w : n < w -> h_trunc n u w false = Err EAssert.
Proof. exact (trunc_guard n u w). Qed.
Theorem C05_zext n u w : wfn n -> inrange n u -> n <= w < 1024 -> h_zext n u w false = Ok (w, u).
Proof. exact (zext_ok n u w). Qed.
Theorem C05_zext_guard n u w : w < n -> h_zext n u w false = Err EAssert.
Proof. exact (zext_guard n u w). Qed.
Theorem C05_sext n u w : wfn n -> inrange n u -> n <= w < 1024 ->
  h_sext n u w false = Ok (w, (spec_sint n u) mod 2 ^ w) /\
  forall i, 0 <= i < w -> Z.testbit ((spec_sint n u) mod 2 ^ w) i = Z.testbit u (Z.min i (n - 1)).
Proof. exact (sext_ok n u w). Qed.
Theorem C05_sext_guard n u w : w < n -> h_sext n u w false = Err EAssert.
Proof. exact (sext_guard n u w). Qed.
Theorem C05_reduce_and n u : wfn n -> inrange n u ->
  (snd (h_reduce_and n u) = 1 <-> forall i, 0 <= i < n -> Z.testbit u i = true) /\
  (snd (h_reduce_and n u) = 0 \/ snd (h_reduce_and n u) = 1) /\ fst (h_reduce_and n u) = 1.
Proof. exact (reduce_and_ok n u). Qed.
Theorem C05_reduce_or n u : inrange n u ->
  (snd (h_reduce_or n u) = 1 <-> exists i, 0 <= i /\ Z.testbit u i = true) /\ fst (h_reduce_or n u) = 1.
Proof. exact (reduce_or_ok n u). Qed.
Theorem C05_reduce_xor n u : wfn n -> inrange n u -> h_reduce_xor n u = (1, b2z (xor_bits (Z.to_nat n) u)).
Proof. exact (reduce_xor_ok n u). Qed.
Theorem C05_clog2 N c : 1 <= N -> h_clog2 N = Ok c ->
  0 <= c /\ N <= 2 ^ c /\ forall k, 0 <= k < c -> 2 ^ k < N.
Proof. exact (clog2_least N c). Qed.
Theorem C05_clog2_total N : 1 <= N -> h_clog2 N = Ok (Z.log2_up N).
Proof. exact (clog2_ok N). Qed.

(* the functions GENERATED from helpers.py on this run equal the model the theorems above are about *)
Theorem C05_clog2_generated N : gen_clog2 N = h_clog2 N.
Proof. exact (gen_clog2_ok N). Qed.
Theorem C05_trunc_generated n u s : gen_trunc n u s = h_trunc n u (wspec_w s) (wspec_ty s).
Proof. exact (gen_trunc_ok n u s). Qed.
Theorem C05_zext_generated n u s : gen_zext n u s = h_zext n u (wspec_w s) (wspec_ty s).
Proof. exact (gen_zext_ok n u s). Qed.
Theorem C05_sext_generated n u s : wfn n -> inrange n u -> gen_sext n u s = h_sext n u (wspec_w s) (wspec_ty s).
Proof. exact (gen_sext_ok n u s). Qed.
Theorem C05_reduce_and_generated n u : 0 <= n -> gen_reduce_and n u = Ok (h_reduce_and n u).
Proof. exact (gen_reduce_and_ok n u). Qed.
Theorem C05_reduce_or_generated n u : gen_reduce_or n u = Ok (h_reduce_or n u).
Proof. exact (gen_reduce_or_ok n u). Qed.

Example C05_nonvacuous : bits_getitem 8 171 0 (ISlice (Some 2) (Some 6) None) = Ok (4, 10)
  /\ bits_getitem 8 171 0 (ISlice (Some 2) (Some 0) None) = Err EIndex
  /\ h_clog2 (2 ^ 29) = Ok 29.
Proof. vm_compute. repeat split. Qed.

Print Assumptions C05_getitem. Print Assumptions C05_setitem. Print Assumptions C05_slice_reads_named_bits.
Print Assumptions C05_slice_invalid_is_error. Print Assumptions C05_bit_read. Print Assumptions C05_slice_write_frames.
Print Assumptions C05_slice_write_invalid_is_error. Print Assumptions C05_slice_write_wrong_width_is_error.
Print Assumptions C05_bit_write_frames. Print Assumptions C05_concat. Print Assumptions C05_concat_width.
Print Assumptions C05_concat_too_wide. Print Assumptions C05_trunc. Print Assumptions C05_trunc_guard.
Print Assumptions C05_zext. Print Assumptions C05_zext_guard. Print Assumptions C05_sext. Print Assumptions C05_sext_guard.
Print Assumptions C05_reduce_and. Print Assumptions C05_reduce_or. Print Assumptions C05_reduce_xor.
Print Assumptions C05_clog2. Print Assumptions C05_clog2_total. Print Assumptions C05_clog2_generated. Print Assumptions C05_trunc_generated. Print Assumptions C05_zext_generated.
Print Assumptions C05_sext_generated. Print Assumptions C05_reduce_and_generated. Print Assumptions C05_reduce_or_generated.
Print Assumptions C05_slice_read_after_write. Print Assumptions C05_read_after_write_nonvacuous.
