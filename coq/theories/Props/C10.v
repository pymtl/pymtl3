(* Props/C10.v — property C10: type-checker widths are the real widths; accepted code has no width errors.
   The theorems of the property, each closed by a theorem proved elsewhere and followed by Print Assumptions; then
   non-vacuity examples (closed terms, by evaluation).

   Vocabulary (RTL/Syntax.v, Eval.v, Typing.v):
     expr / stmt        deep embedding of the update-block language accepted by the RTLIR front end
     eval G st e        what the simulator computes (python ints / Bits objects via Bits/BitsSpec.v), errors included
     tc chk E e         model of BehavioralRTLIRTypeCheckL1-L3: Some (type of the node, annotations of all nodes) or None
                        chk = impl   : the checker as implemented (what harness/c10.py compares with the real pass)
                        chk = strict : impl + the checks (Sh), (S1)..(S7), (S10)..(S13) of Typing.v; for impl, which has none
                                       of them, soundness is false (C10_impl_unsound: blocks that (S1)..(S5), (S10) reject)
     castfree e         no explicit width-changing BitsN(.) cast (the property's exemption)
     check (Sh)         shift amounts have the width of the shifted Bits value (the property's other exemption)
     env_ok E st        the runtime temporaries / loop variables have the types the checker recorded *)
From PV Require Import Base.Prelude Bits.BitsSpec RTL.Syntax RTL.Eval RTL.Typing RTL.TypingSound RTL.TypingMono RTL.BlockSound.
Open Scope Z_scope.

(* "an integer literal's inferred width is the least number of bits that holds it" *)
Theorem C10_lit_width z : 0 <= z ->
  1 <= nbits_of z /\ z < 2 ^ nbits_of z /\ (forall j, 1 <= j -> z < 2 ^ j -> nbits_of z <= j).
Proof. exact (lit_width z). Qed.
Print Assumptions C10_lit_width.

(* "the width assigned to a sub-expression equals the width of the value the simulator computes; simulating never
   raises a bitwidth / implicit-truncation error" — every expression constructor but the explicit cast (excluded by
   castfree), arbitrary nesting *)
Theorem C10_tc_sound E st e a l :
  tc strict E e = Some (a, l) -> castfree e = true -> env_ok E st ->
  eval (tsig E) st e <> Err EValue /\
  (forall n u, eval (tsig E) st e = Ok (VBits n u) -> n = aw a /\ 0 < n < 1024 /\ 0 <= u < 2 ^ n) /\
  (forall z, eval (tsig E) st e = Ok (VInt z) -> 0 <= z /\ (aovf a = false -> z < 2 ^ aw a)).
Proof. exact (tc_sound E st e a l). Qed.
Print Assumptions C10_tc_sound.

(* ... for every sub-expression of an accepted expression *)
Theorem C10_tc_sound_sub E st e a l e' :
  tc strict E e = Some (a, l) -> castfree e = true -> env_ok E st -> subexpr e' e ->
  exists a' l', tc strict E e' = Some (a', l') /\
    eval (tsig E) st e' <> Err EValue /\
    (forall n u, eval (tsig E) st e' = Ok (VBits n u) -> n = aw a' /\ 0 < n < 1024 /\ 0 <= u < 2 ^ n) /\
    (forall z, eval (tsig E) st e' = Ok (VInt z) -> 0 <= z /\ (aovf a' = false -> z < 2 ^ aw a')).
Proof. exact (tc_sound_sub E st e a l e'). Qed.
Print Assumptions C10_tc_sound_sub.

(* ... and for assignment statements (signal, field, constant / x:x+k slice, bit, temporary; @= and <<=):
   an accepted assignment never raises a width error and leaves the environment well typed *)
Theorem C10_tc_sound_assign E st lbl l e blocking E' ns :
  tc_assign strict E l e = Some (E', ns) -> castfree e = true -> castfree_lhs l = true -> env_ok E st ->
  match exec_assign (tsig E) st lbl l e blocking with
  | Ok st' => env_ok E' st'
  | Err EValue => False
  | Err _ => True
  end.
Proof. exact (tc_assign_sound E st lbl l e blocking E' ns). Qed.
Print Assumptions C10_tc_sound_assign.

(* ... and for WHOLE BLOCKS, if / else and constant-bounded for loops arbitrarily nested, temporaries included: a block
   that the checker accepts and that contains no cast never raises a width error, on any inputs, and the temporaries /
   loop variables it leaves behind have the types the checker recorded.  (The loop body is typed once and executed for
   every value of the range; both branches of an if are typed, one is executed; a temporary assigned in one branch only
   and read after the other one was taken is an UnboundLocalError, not a width error.) *)
Theorem C10_block_sound G b inputs E' ns :
  tc_block strict (init_tenv G) b = Some (E', ns) -> castfree_block b = true ->
  match exec_block G b (init_state inputs) with
  | Ok st' => env_ok E' st'
  | Err EValue => False
  | Err _ => True
  end.
Proof. exact (block_sound G b inputs E' ns). Qed.
Print Assumptions C10_block_sound.

(* the same for one statement in the middle of a block: any typing environment E, any final environment B of the
   enclosing block, any state in which the temporaries have the types of B and the loop variables those of E *)
Theorem C10_stmt_sound s E E' ns B st :
  tcs strict E s = Some (E', ns) -> castfree_stmt s = true -> tenv_wf E -> tmps_in E' B -> inv E B st ->
  match exec (tsig E) s st with
  | Ok st' => inv E' B st'
  | Err EValue => False
  | Err _ => True
  end.
Proof. intros H1 H2 H3. exact (proj2 (stmt_sound_all s E E' ns H1 H2 H3) B st). Qed.
Print Assumptions C10_stmt_sound.

(* "a block whose simulation raises a width mismatch between explicitly sized operands of an arithmetic, bitwise,
   comparison, conditional or assignment operation is rejected" — static form, for EVERY setting of the extra
   checks, in particular for impl, the model of the code *)
Theorem C10_tc_complete_bin chk E op a b ra rb :
  tc chk E a = Some ra -> tc chk E b = Some rb ->
  aex (fst ra) = true -> aex (fst rb) = true -> aw (fst ra) <> aw (fst rb) -> is_shift op = false ->
  tc chk E (EBin op a b) = None.
Proof. exact (tc_complete_bin chk E op a b ra rb). Qed.
Print Assumptions C10_tc_complete_bin.
Theorem C10_tc_complete_cmp chk E op a b ra rb :
  tc chk E a = Some ra -> tc chk E b = Some rb ->
  aex (fst ra) = true -> aex (fst rb) = true -> aw (fst ra) <> aw (fst rb) ->
  tc chk E (ECmp op a b) = None.
Proof. exact (tc_complete_cmp chk E op a b ra rb). Qed.
Print Assumptions C10_tc_complete_cmp.
Theorem C10_tc_complete_ifexp chk E c a b rc ra rb :
  tc chk E c = Some rc -> tc chk E a = Some ra -> tc chk E b = Some rb ->
  aex (fst ra) = true -> aex (fst rb) = true -> aw (fst ra) <> aw (fst rb) ->
  abool (fst ra) || abool (fst rb) = false ->      (* neither branch is a bare comparison result (rdt.Bool) *)
  tc chk E (EIf c a b) = None.
Proof. exact (tc_complete_ifexp chk E c a b rc ra rb). Qed.
Print Assumptions C10_tc_complete_ifexp.
Theorem C10_tc_complete_assign chk E l e le rl r :
  lhs_expr l = Some le -> tc chk E le = Some rl -> tc chk E e = Some r ->
  astr (fst rl) = None -> astr (fst r) = None ->
  aex (fst r) = true -> aw (fst r) <> aw (fst rl) ->
  tc_assign chk E l e = None.
Proof. exact (tc_complete_assign chk E l e le rl r). Qed.
Print Assumptions C10_tc_complete_assign.

(* runtime form: operands that EVALUATE to Bits of different widths (so the simulator raises ValueError) => rejected *)
Theorem C10_tc_complete_bin_runtime E st op a b ra rb n u m v :
  tc strict E a = Some ra -> tc strict E b = Some rb -> castfree a = true -> castfree b = true -> env_ok E st ->
  eval (tsig E) st a = Ok (VBits n u) -> eval (tsig E) st b = Ok (VBits m v) -> n <> m -> is_shift op = false ->
  eval (tsig E) st (EBin op a b) = Err EValue /\ tc strict E (EBin op a b) = None.
Proof. exact (tc_complete_bin_runtime E st op a b ra rb n u m v). Qed.
Print Assumptions C10_tc_complete_bin_runtime.
Theorem C10_tc_complete_cmp_runtime E st op a b ra rb n u m v :
  tc strict E a = Some ra -> tc strict E b = Some rb -> castfree a = true -> castfree b = true -> env_ok E st ->
  eval (tsig E) st a = Ok (VBits n u) -> eval (tsig E) st b = Ok (VBits m v) -> n <> m ->
  eval (tsig E) st (ECmp op a b) = Err EValue /\ tc strict E (ECmp op a b) = None.
Proof. exact (tc_complete_cmp_runtime E st op a b ra rb n u m v). Qed.
Print Assumptions C10_tc_complete_cmp_runtime.

(* link between the two checkers: every extra check only removes accepted programs; whatever strict accepts,
   the model of the code accepts with the same type and the same width on every node *)
Theorem C10_strict_sub_impl E e r : tc strict E e = Some r -> tc impl E e = Some r.
Proof. exact (strict_sub_impl E e r). Qed.
Print Assumptions C10_strict_sub_impl.
Theorem C10_strict_sub_impl_assign E l e x : tc_assign strict E l e = Some x -> tc_assign impl E l e = Some x.
Proof. apply tc_assign_mono. intros k Hk; discriminate Hk. Qed.
Print Assumptions C10_strict_sub_impl_assign.
(* hence: operands (of the sound fragment) that evaluate to Bits of different widths make the code's checker reject *)
Theorem C10_tc_complete_bin_runtime_impl E st op a b ra rb n u m v :
  tc strict E a = Some ra -> tc strict E b = Some rb -> castfree a = true -> castfree b = true -> env_ok E st ->
  eval (tsig E) st a = Ok (VBits n u) -> eval (tsig E) st b = Ok (VBits m v) -> n <> m -> is_shift op = false ->
  eval (tsig E) st (EBin op a b) = Err EValue /\ tc impl E (EBin op a b) = None.
Proof. exact (tc_complete_bin_runtime_impl E st op a b ra rb n u m v). Qed.
Print Assumptions C10_tc_complete_bin_runtime_impl.

(* the soundness statement is FALSE for the checker as implemented: blocks that impl accepts, that use no cast and
   no shift, and whose execution raises ValueError (one for each of the missing checks S1..S5 and S10; harness/c10.py
   finds each on the real code) *)
Theorem C10_impl_unsound :
  accepted_but_raises [SAssign 0 (LSig 1 []) (ELit 300) true] /\
  accepted_but_raises [SAssign 0 (LSig 3 []) (EBin Add (ESized 8 3) (ESized 8 4)) true] /\
  accepted_but_raises [SFor 0 0 4 1 [SAssign 0 (LSig 2 []) (EBin Add (ELoop 0) (ELit 1)) true]] /\
  accepted_but_raises [SAssign 0 (LSig 1 []) (EBin Add (ESig 0 []) (EBin Sub (ELit 1) (ELit 2))) true] /\
  accepted_but_raises [SAssign 0 (LSig 1 []) (EBin Add (ESig 0 []) (EIf (EIdx (ESig 0 []) (ELit 1)) (ELit 3) (ELit 300))) true] /\
  accepted_but_raises [SAssign 0 (LSig 2 []) (EIf (EIdx (ESig 0 []) (ELit 1)) (EBin Add (ELit 1) (ELit 2)) (ESig 0 [])) true].
Proof. exact (conj cex_S1 (conj cex_S2 (conj cex_S3 (conj cex_S4 (conj cex_S5 cex_S10))))). Qed.
Print Assumptions C10_impl_unsound.

(* non-vacuity: the hypotheses of the soundness theorems are satisfiable, with a non-trivial expression:
   constant slice, mixed int / Bits arithmetic, if-expression, comparison, concat, extension
   (a slice of the form [i : i+2] is in demo_block below) *)
Example C10_nonvacuous :
  let E := init_tenv G8 in
  let e := EIf (ECmp CLt (ESig 0 []) (ELit 200))
               (EBin Add (ESig 0 []) (ELit 1))
               (EConcat [ESlice (ESig 0 []) (ELit 2) (ELit 6); EZext 4 (ESig 2 [])]) in
  exists a l, tc strict E e = Some (a, l) /\ aw a = 8 /\ castfree e = true /\ env_ok E (init_state [5; 0; 0; 0]) /\
              eval (tsig E) (init_state [5; 0; 0; 0]) e = Ok (VBits 8 6).
Proof.
  cbn zeta. eexists; eexists. split; [vm_compute; reflexivity|]. split; [reflexivity|]. split; [reflexivity|].
  split; [|vm_compute; reflexivity].
  split; intros; discriminate.
Qed.
(* a block with a temporary, and an if (with another temporary) inside a for:
     t0 = s.a
     for i in range(4):
       if s.a[i]:  t1 = t0 + 1 ; s.o[i:i+2] @= t1[0:2]
       else:       s.o[i] @= 0                                                        *)
Definition demo_block : list stmt :=
  [ SAssign 0 (LTmp 0) (ESig 0 []) true;
    SFor 0 0 4 1
      [ SIf 1 (EIdx (ESig 0 []) (ELoop 0))
          [ SAssign 2 (LTmp 1) (EBin Add (ETmp 0) (ELit 1)) true;
            SAssign 3 (LSlice 1 [] (ELoop 0) (EBin Add (ELoop 0) (ELit 2))) (ESlice (ETmp 1) (ELit 0) (ELit 2)) true ]
          [ SAssign 4 (LIndex 1 [] (ELoop 0)) (ELit 0) true ] ] ].
Example C10_nonvacuous_block :
  (exists E' ns, tc_block strict (init_tenv G8) demo_block = Some (E', ns)) /\ castfree_block demo_block = true /\
  match exec_block G8 demo_block (init_state [6; 0; 0; 0]) with Ok st' => final_sig st' 1%nat = 6 | Err _ => False end.
Proof. split; [eexists; eexists; vm_compute; reflexivity|]. split; vm_compute; reflexivity. Qed.

Example C10_nonvacuous_assign :
  exists E' ns, tc_assign strict (init_tenv G8) (LSlice 1 [] (ELit 0) (ELit 3)) (EBin Xor (ESig 3 []) (ELit 5)) = Some (E', ns).
Proof. eexists; eexists. vm_compute. reflexivity. Qed.
