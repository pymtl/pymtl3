(* Props/C01.v — property C01: simulation results do not depend on the schedule; the state is the unique fixed point.
   Statements, each closed by exact/apply of a theorem of Sched/, their Print Assumptions, and evaluated non-vacuity examples. *)
From Coq Require Import ZArith List Bool Arith Lia Permutation.
Import ListNotations.
From PV Require Import Sched.Block Sched.Confluence Sched.Accept Sched.DagAccept.
(* the same theorems with NO footprint hypothesis for blocks of the RTL language are in Props/C01_rtl.v; nothing of it is
   used below: it is imported so that building Props/C01.vo builds and checks them too *)
From PV Require Import Props.C01_rtl.

Section C01.
Context {var val : Type}.
Variable B : nat -> blk var val.
Variable ids : list nat.
Variable E : nat -> nat -> bool.

(* (1) every two linear extensions of the constraint relation — whatever pass, tie-break or shuffle produced
   them — compute the same value for every variable *)
Theorem C01_schedule_independent :
  (forall i, In i ids -> frame (B i)) -> (forall i, In i ids -> dep (B i)) -> single_writer B ids ->
  (forall i j, In i ids -> In j ids -> i <> j -> feeds B i j -> E i j = true \/ E j i = true) ->
  forall s t, NoDup s -> Permutation s t -> incl s ids -> lin_ext E s -> lin_ext E t ->
  forall e, eqe (run_list B s e) (run_list B t e).
Proof. intros Hf Hd Hs Hc. exact (topo_confluent B ids Hf Hd Hs E Hc). Qed.

(* (2) re-running any update block after evaluation changes nothing *)
Theorem C01_fixed_point :
  (forall i, In i ids -> frame (B i)) -> single_writer B ids ->
  (forall i, In i ids -> sdep (B i)) -> (forall i, In i ids -> nsl (B i)) ->
  (forall i j, In i ids -> In j ids -> i <> j -> feeds B i j -> E i j = true) ->
  forall s, NoDup s -> incl s ids -> lin_ext E s -> forall e i, In i s -> fixed_under B i (run_list B s e).
Proof. intros Hf Hs Hd Hn Hi. exact (topo_fixed_point B ids Hf Hs E Hd Hn Hi). Qed.

(* (3) the values are THE solution of the dataflow equations: fixed points agreeing on the inputs are equal *)
Theorem C01_unique_solution :
  (forall i, In i ids -> sdep (B i)) -> (forall i, In i ids -> nsl (B i)) ->
  (forall i j, In i ids -> In j ids -> i <> j -> feeds B i j -> E i j = true) ->
  forall s e1 e2, NoDup s -> incl s ids -> incl ids s -> lin_ext E s ->
  (forall v, (forall i, In i ids -> wr (B i) v = false) -> e1 v = e2 v) ->
  (forall i, In i ids -> fixed_under B i e1) -> (forall i, In i ids -> fixed_under B i e2) -> eqe e1 e2.
Proof. intros Hd Hn Hi. exact (fixed_point_unique B ids E Hd Hn Hi). Qed.

(* (4) every order of the flip-flop blocks gives the same state (stated for C07 as well: Props/C07.v, C07_any_ff_order) *)
Theorem C01_ff_order_independent :
  (forall i, In i ids -> frame (B i)) -> (forall i, In i ids -> dep (B i)) -> single_writer B ids ->
  (forall i j v, In i ids -> In j ids -> i <> j -> wr (B i) v = true -> rd (B j) v = false) ->
  forall s t, NoDup s -> Permutation s t -> incl s ids -> forall e, eqe (run_list B s e) (run_list B t e).
Proof. intros Hf Hd Hs Hff. exact (ff_perm_indep B ids Hf Hd Hs Hff). Qed.
End C01.

(* (5) end-to-end with the certified acceptor: for ANY block semantics R that respects the observed bit-level
   footprints, two observed schedules accepted by sched_ok compute the same state, and it is a fixed point *)
Theorem C01_accepted_schedules_agree {val : Type} (d : design) (R : nat -> env bit val -> env bit val) :
  wf_design d = true -> sw_ok d = true ->
  (forall i, In i (ids d) -> frame (Bd d R i)) -> (forall i, In i (ids d) -> dep (Bd d R i)) ->
  forall o1 o2, sched_ok d o1 = true -> sched_ok d o2 = true -> forall e, eqe (run_list (Bd d R) o1 e) (run_list (Bd d R) o2 e).
Proof. exact (accepted_schedules_agree d R). Qed.

Theorem C01_accepted_schedule_fixed_point {val : Type} (d : design) (R : nat -> env bit val -> env bit val) :
  wf_design d = true -> sw_ok d = true -> (forall i, In i (ids d) -> frame (Bd d R i)) ->
  (forall i, In i (ids d) -> sdep (Bd d R i)) -> nsl_ok d = true -> noinv_ok d = true ->
  forall o, sched_ok d o = true -> forall e i, In i (ids d) -> fixed_under (Bd d R) i (run_list (Bd d R) o e).
Proof. exact (accepted_schedule_fixed_point d R). Qed.

(* (6) ALL schedules at once: if pymtl3's constraint graph G (top._dag.all_constraints between the comb blocks) is accepted
   by dag_ok — every pair the bit-level footprints require is connected by a path of G, the paths being supplied by the
   harness and only checked here — then every two linear extensions of G, i.e. every two schedules that ANY tie-break
   of a topological-sort scheduler could produce, compute the same state *)
Theorem C01_all_schedules_of_accepted_graph_agree {val : Type} (d : design) (R : nat -> env bit val -> env bit val) :
  sw_ok d = true -> (forall i, In i (ids d) -> frame (Bd d R i)) -> (forall i, In i (ids d) -> dep (Bd d R i)) ->
  forall G paths, dag_ok d G paths = true ->
  forall o1 o2, perm_b d o1 = true -> lin_ext_b (Gb G) o1 = true -> perm_b d o2 = true -> lin_ext_b (Gb G) o2 = true ->
  forall e, eqe (run_list (Bd d R) o1 e) (run_list (Bd d R) o2 e).
Proof. exact (dag_all_schedules_agree d R). Qed.

Theorem C01_accepted_graph_accepts_every_linear_extension d G paths : dag_ok d G paths = true ->
  forall o, perm_b d o = true -> lin_ext_b (Gb G) o = true -> sched_ok d o = true.
Proof. exact (dag_ok_sound d G paths). Qed.

Example C01_graph_nonvacuous :
  dag_ok exD3 [(0, 1); (1, 2)]%nat [[0; 1; 2]%nat] = true /\
  dag_ok exD3 [(0, 1)]%nat [[0; 1; 2]%nat] = false /\
  perm_b exD3 [0; 1; 2]%nat = true /\ lin_ext_b (Gb [(0, 1); (1, 2)]%nat) [0; 1; 2]%nat = true.
Proof. exact dag_ok_example. Qed.

(* non-vacuity: a 4-block diamond (0 feeds 1 and 2, both feed 3) is accepted in both of its linear extensions *)
Definition diamond : design :=
  mkDesign 4 (fun i => match i with 1%nat | 2%nat => [(0%nat, 0%Z, 8%Z)] | 3%nat => [(1%nat, 0%Z, 8%Z); (2%nat, 0%Z, 4%Z)] | _ => [(9%nat, 0%Z, 1%Z)] end)
             (fun i => match i with 0%nat => [(0%nat, 0%Z, 8%Z)] | 1%nat => [(1%nat, 0%Z, 8%Z)] | 2%nat => [(2%nat, 0%Z, 8%Z)] | _ => [(3%nat, 0%Z, 8%Z)] end) [].
Example C01_nonvacuous : sched_ok diamond [0;1;2;3]%nat = true /\ sched_ok diamond [0;2;1;3]%nat = true /\
  sched_ok diamond [1;0;2;3]%nat = false /\ sw_ok diamond = true /\ nsl_ok diamond = true /\ noinv_ok diamond = true.
Proof. vm_compute. repeat split. Qed.

Print Assumptions C01_schedule_independent. Print Assumptions C01_fixed_point. Print Assumptions C01_unique_solution.
Print Assumptions C01_ff_order_independent. Print Assumptions C01_accepted_schedules_agree.
Print Assumptions C01_accepted_schedule_fixed_point.
Print Assumptions C01_all_schedules_of_accepted_graph_agree. Print Assumptions C01_accepted_graph_accepts_every_linear_extension.
