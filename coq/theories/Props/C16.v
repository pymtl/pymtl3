(* Props/C16.v — property C16: waveform dumps replay the simulation exactly.
   ONLY statements, each closed by `exact`/`apply`, each followed by Print Assumptions.
   Model: Trace/Vcd.v (writer = VcdGenerationPass + Bits.to_vcd_str; reader = plain VCD semantics).
   The writer model is compared character-for-character with the real .vcd body on every run, and the
   reader (`decode`) is run on the real file against the values sampled in the simulator (harness/c16.py). *)
From PV Require Import Base.Prelude Trace.Vcd Trace.VcdProofs.
From Coq Require Import Strings.Ascii Strings.String.
Open Scope Z_scope.

(* Bits.to_vcd_str read back gives the width and the value, for every width and value, whatever
   identifier code follows on the line *)
Theorem C16_vcd_str_roundtrip n u sym :
  0 < n -> 0 <= u < 2 ^ n -> nonempty sym = true ->
  parse_change (to_vcd_str n u ++ sym)%string = Some (n, u, sym).
Proof. exact (vcd_str_roundtrip n u sym). Qed.

(* 1-bit: a single 0/1 character, no `b`, no space; otherwise b + n zero-padded digits + space *)
Theorem C16_one_bit_form u : 0 <= u < 2 ->
  to_vcd_str 1 u = String (if u =? 1 then "1"%char else "0"%char) EmptyString.
Proof. exact (to_vcd_str_one_bit u). Qed.
Theorem C16_multi_bit_form n u : n <> 1 ->
  to_vcd_str n u = String "b"%char (bits_msb (Z.to_nat n) u ++ String " "%char EmptyString)%string
  /\ String.length (bits_msb (Z.to_nat n) u) = Z.to_nat n.
Proof. exact (to_vcd_str_multi_bit_form n u). Qed.

(* the identifier-code generator never gives two nets the same code *)
Theorem C16_symbol_inj n m : 0 <= n -> 0 <= m -> symbol_of n = symbol_of m -> n = m.
Proof. exact (symbol_inj n m). Qed.
Theorem C16_symbols_distinct n : NoDup (all_syms n).
Proof. exact (all_syms_NoDup n). Qed.

(* decode (encode tr) = tr: any number of nets, any widths, clock net anywhere, any number of cycles,
   any value sequence (revisited values, nets that never change, all-zero first rows are inside the
   quantifier); the encoder prints the defaults, then per cycle only the nets whose string differs from
   last_values (indexed as the code indexes it) *)
Theorem C16_encode_decode ws k tr : wf_widths ws k -> wf_trace ws k tr ->
  decode (vcd_clk ws k) (remove_nth k (all_syms (List.length ws))) (vcd_body ws k tr)
  = expected_rows (remove_nth k ws) tr.
Proof. exact (encode_decode ws k tr). Qed.
Theorem C16_encode_decode_values ws k tr : wf_widths ws k -> wf_trace ws k tr ->
  decode_values (vcd_clk ws k) (remove_nth k (all_syms (List.length ws))) (vcd_body ws k tr) = Some tr.
Proof. exact (encode_decode_values ws k tr). Qed.
(* ... and on the characters of the value-change lines *)
Theorem C16_encode_decode_lines ws k tr : wf_widths ws k -> wf_trace ws k tr ->
  decode_lines (vcd_clk ws k) (remove_nth k (all_syms (List.length ws))) (vcd_lines ws k tr)
  = Some (expected_rows (remove_nth k ws) tr).
Proof. exact (encode_decode_lines ws k tr). Qed.

(* the clock read back: low before #0, high at 100t and low at 100t+50 for each cycle t < N, high at 100N *)
Theorem C16_clock_toggles ws k tr : wf_widths ws k -> wf_trace ws k tr ->
  clock_wave (vcd_clk ws k) (vcd_body ws k tr) = expected_clock (List.length tr).
Proof. exact (clock_toggles ws k tr). Qed.

(* signals declared with one identifier code (one net) read back equal in every cycle *)
Theorem C16_net_share clk syms toks r i j :
  In r (decode clk syms toks) -> nth i syms EmptyString = nth j syms EmptyString ->
  (i < List.length syms)%nat -> (j < List.length syms)%nat ->
  nth i r None = nth j r None.
Proof. exact (net_share clk syms toks r i j). Qed.

(* the acceptor run on the real file: `true` means the reader gave exactly the sampled values *)
Theorem C16_acceptor_sound ws tr got : rows_match ws tr got = true -> Forall2 (Forall2 shows) tr got.
Proof. exact (rows_match_sound ws tr got). Qed.
Theorem C16_acceptor_complete ws tr :
  Forall (fun w => 0 < w) ws -> Forall (fun vals => List.length ws = List.length vals) tr ->
  rows_match ws tr (expected_rows ws tr) = true.
Proof. exact (rows_match_expected ws tr). Qed.

(* non-vacuity: a 3-net dump (clock in the middle) whose trace revisits a value, keeps a net constant
   and starts all-zero satisfies the hypotheses, and computes *)
Example C16_nonvacuous :
  wf_widths [4; 1; 3] 1 /\ wf_trace [4; 1; 3] 1 [[0; 0]; [5; 0]; [0; 0]; [5; 0]]
  /\ decode_lines (vcd_clk [4; 1; 3] 1) (remove_nth 1 (all_syms 3)) (vcd_lines [4; 1; 3] 1 [[0; 0]; [5; 0]; [0; 0]; [5; 0]])
     = Some [[Some (4, 0); Some (3, 0)]; [Some (4, 5); Some (3, 0)]; [Some (4, 0); Some (3, 0)]; [Some (4, 5); Some (3, 0)]].
Proof.
  split; [|split].
  - unfold wf_widths. cbn [List.length nth]. split; [lia|]. split; [reflexivity|]. repeat constructor.
  - unfold wf_trace. cbn [remove_nth]. repeat constructor; cbn; lia.
  - vm_compute. reflexivity.
Qed.
Example C16_nonvacuous_wide : parse_change (to_vcd_str 100 (2 ^ 100 - 1) ++ symbol_of 9000)%string
  = Some (100, 2 ^ 100 - 1, symbol_of 9000).
Proof. vm_compute. reflexivity. Qed.

Print Assumptions C16_vcd_str_roundtrip. Print Assumptions C16_one_bit_form. Print Assumptions C16_multi_bit_form.
Print Assumptions C16_symbol_inj. Print Assumptions C16_symbols_distinct.
Print Assumptions C16_encode_decode. Print Assumptions C16_encode_decode_values. Print Assumptions C16_encode_decode_lines.
Print Assumptions C16_clock_toggles. Print Assumptions C16_net_share.
Print Assumptions C16_acceptor_sound. Print Assumptions C16_acceptor_complete.
