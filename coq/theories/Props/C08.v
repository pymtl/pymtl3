(* Props/C08.v — property C08: connected signals form single-writer nets independent of connect order.
   Statements closed by exact, one non-vacuity example by computation, Print Assumptions. *)
From Coq Require Import ZArith List Bool Arith Lia Permutation.
Import ListNotations.
From PV Require Import Sched.Accept Elab.Nets Elab.NetsProofs Elab.Writers Elab.WritersProofs.

(* nets = connected components: two nodes share a class iff related by the refl-sym-trans closure of the statements *)
Theorem C08_components_spec E x y : In x (nodes E) -> In y (nodes E) ->
  (same (components E) x y <-> conn E x y).
Proof. exact (components_spec E x y). Qed.

(* every computed net is exactly one equivalence class *)
Theorem C08_components_class E c x : In c (components E) -> In x c -> forall y, In y c <-> conn E x y.
Proof. exact (components_class E c x). Qed.

(* the nets partition the connected signals: non-empty, no signal listed twice (pairwise disjoint), all nodes covered *)
Theorem C08_components_partition E :
  (forall c, In c (components E) -> c <> []) /\ NoDup (concat (components E)) /\
  (forall c d x, In c (components E) -> In d (components E) -> In x c -> In x d -> c = d) /\
  (forall x, In x (nodes E) <-> exists c, In c (components E) /\ In x c).
Proof.
  exact (conj (components_nonempty E) (conj (components_nodup E) (conj (components_disjoint E) (components_cover E)))).
Qed.

(* permuting the statements and swapping the sides of any subset of them yields the same nets (as a set of sets) *)
Theorem C08_components_order_indep E E' bs : Permutation E' (flip_some bs E) ->
  parts_equiv (components E) (components E').
Proof. exact (components_perm_flip E E' bs). Qed.
Theorem C08_components_same_graph E E' : edges_equiv E E' -> parts_equiv (components E) (components E').
Proof. exact (components_equiv E E'). Qed.

(* acceptor run on what pymtl3 produced: accepted nets are exactly the connected components *)
Theorem C08_nets_ok_sound E obs : nets_ok E obs = true ->
  length obs = length (components E) /\
  parts_equiv obs (components E) /\
  (forall o x, In o obs -> In x o -> forall y, In y o <-> conn E x y) /\
  (forall x, In x (nodes E) <-> exists o, In o obs /\ In x o).
Proof. exact (nets_ok_sound E obs). Qed.

(* the drivers of a net are a function of the net as a set, hence of the connection graph only *)
Theorem C08_drivers_function_of_set tbl D c c' : set_eq c c' -> set_eq (drivers tbl D c) (drivers tbl D c').
Proof. exact (drivers_set_fun tbl D c c'). Qed.
Theorem C08_drivers_order_indep tbl D E E' bs : Permutation E' (flip_some bs E) ->
  forall c, In c (components E) ->
  exists c', In c' (components E') /\ set_eq c c' /\ set_eq (drivers tbl D c) (drivers tbl D c').
Proof. exact (drivers_perm_flip_indep tbl D E E' bs). Qed.

(* acceptor run on the (writer, net) list pymtl3 produced, in resolution order: the named writer is a member, is a
   legitimate driver (least fixed point), and is the only member driven from outside its net *)
Theorem C08_writer_ok_sound tbl D0 obs : writer_ok tbl D0 obs = true ->
  forall i w net, nth_error obs i = Some (w, net) ->
    In w net /\
    justified tbl D0 obs w /\
    (forall m, In m net -> m <> w ->
       const_n tbl m = false /\ forall d, In d (ext_drive tbl D0 obs i) -> ivl_overlap (ivl_n tbl m) d = false) /\
    (forall m, In m (drivers tbl (ext_drive tbl D0 obs i) net) -> m = w).
Proof. exact (writer_ok_sound tbl D0 obs). Qed.

Theorem C08_no_second_driver_bit tbl D0 obs : writer_ok tbl D0 obs = true ->
  forall i w net, nth_error obs i = Some (w, net) ->
  forall m, In m net -> m <> w ->
  forall d, In d (ext_drive tbl D0 obs i) -> wf_ivl d = true ->
  ~ exists v, in_ivl v (ivl_n tbl m) = true /\ in_ivl v d = true.
Proof. intros H i w net Hi m Hm Hne d Hd _. exact (writer_ok_no_shared_bit tbl D0 obs H i w net Hi m Hm Hne d Hd). Qed.

(* inside an accepted net the distinct reader ranges (net_readers: x and its full-width slice count once) are pairwise disjoint *)
Theorem C08_net_drives_no_bit_twice tbl obs : net_disjoint_ok tbl obs = true ->
  forall wn, In wn obs -> ForallOrdPairs (fun a b => ivl_overlap a b = false) (net_readers tbl wn).
Proof. exact (net_disjoint_ok_sound tbl obs). Qed.

(* "in simulation every member of a net carries the writer's value": the net block (copy the writer's bits onto each
   reader in turn) establishes it whenever the acceptor's shape check holds, and leaves the writer untouched *)
Theorem C08_net_values tbl obs : net_disjoint_ok tbl obs = true ->
  forall w net, In (w, net) obs -> const_n tbl w = false -> forall e,
  (forall v, in_ivl v (ivl_n tbl w) = true -> run_net (ivl_n tbl w) (net_readers tbl (w, net)) e v = e v) /\
  (forall r, In r (reader_ivls tbl (w, net)) -> carries (ivl_n tbl w) r (run_net (ivl_n tbl w) (net_readers tbl (w, net)) e)).
Proof. exact (net_values_accepted tbl obs). Qed.

(* non-vacuity: statements 0-1, 2-1, 3-4 (and a swapped, permuted copy); node 0 is bits [0,8) of root 0 and is written by
   an update block; 1 and 2 are other roots; 3 is a constant feeding 4.  The acceptors accept the right answer and
   reject a wrong net split, a wrong writer, and a second driven member. *)
Definition exE : list edge := [(0, 1); (2, 1); (3, 4)]%nat.
Definition exT : list ninfo :=
  [mkN false (0%nat, 0%Z, 8%Z); mkN false (1%nat, 0%Z, 8%Z); mkN false (2%nat, 0%Z, 8%Z); mkN true (9%nat, 0%Z, 0%Z);
   mkN false (3%nat, 0%Z, 4%Z)].
Example C08_nonvacuous :
  nets_ok exE [[1; 0; 2]; [4; 3]]%nat = true /\ nets_ok [(4, 3); (1, 2); (1, 0)]%nat [[1; 0; 2]; [4; 3]]%nat = true /\
  nets_ok exE [[1; 0]; [2]; [4; 3]]%nat = false /\ nets_ok exE [[1; 0; 2; 4; 3]]%nat = false /\
  writer_ok exT [(0%nat, 0%Z, 4%Z)] [(0, [1; 0; 2]); (3, [4; 3])]%nat = true /\
  writer_ok exT [(0%nat, 0%Z, 4%Z)] [(1, [1; 0; 2]); (3, [4; 3])]%nat = false /\
  writer_ok exT [(0%nat, 0%Z, 4%Z); (2%nat, 7%Z, 9%Z)] [(0, [1; 0; 2]); (3, [4; 3])]%nat = false /\
  net_disjoint_ok exT [(0, [1; 0; 2]); (3, [4; 3])]%nat = true.
Proof. vm_compute. repeat split. Qed.

Print Assumptions C08_components_spec. Print Assumptions C08_components_class. Print Assumptions C08_components_partition.
Print Assumptions C08_components_order_indep. Print Assumptions C08_components_same_graph. Print Assumptions C08_nets_ok_sound.
Print Assumptions C08_drivers_function_of_set. Print Assumptions C08_drivers_order_indep. Print Assumptions C08_writer_ok_sound.
Print Assumptions C08_no_second_driver_bit. Print Assumptions C08_net_drives_no_bit_twice. Print Assumptions C08_net_values.
