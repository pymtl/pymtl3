(* SV/ModulesProofs.v — theorems about SV/Modules.v (property C13): injectivity of the module-name function under its
   provisos and collisions without them, soundness of the module-table acceptor, the first-wins dictionary, and the
   canonical output order.  No axioms, nothing admitted. *)
From Coq Require Import Ascii String Permutation Sorted.
From PV Require Import Base.Prelude SV.Modules.

Lemma str_eqb_refl a : str_eqb a a = true.
Proof. induction a as [|x a IH]; cbn; [reflexivity|]. rewrite Ascii.eqb_refl. exact IH. Qed.

Lemma str_eqb_eq a b : str_eqb a b = true <-> a = b.
Proof.
  split; [|intros ->; apply str_eqb_refl].
  revert b; induction a as [|x a IH]; intros [|y b]; cbn; try discriminate; [reflexivity|].
  intros H. apply andb_prop in H as [H1 H2]. apply Ascii.eqb_eq in H1. apply IH in H2. congruence.
Qed.

Lemma str_eqb_sym a b : str_eqb a b = str_eqb b a.
Proof.
  revert b; induction a as [|x a IH]; intros [|y b]; cbn; try reflexivity. rewrite Ascii.eqb_sym, IH. reflexivity.
Qed.

Lemma existsb_eqb_In {A} (eqb : A -> A -> bool) (eqb_eq : forall a b, eqb a b = true <-> a = b) x l :
  existsb (eqb x) l = true <-> In x l.
Proof.
  rewrite existsb_exists. split.
  - intros [y [Hy E]]. apply eqb_eq in E. subst. exact Hy.
  - intros H. exists x. split; [exact H|apply eqb_eq; reflexivity].
Qed.

Lemma mems_In x l : mems x l = true <-> In x l.
Proof. exact (existsb_eqb_In str_eqb str_eqb_eq x l). Qed.

Lemma memc_In c l : memc c l = true <-> In c l.
Proof. exact (existsb_eqb_In Ascii.eqb Ascii.eqb_eq c l). Qed.

Lemma nodup_s_NoDup l : nodup_s l = true -> NoDup l.
Proof.
  induction l as [|a r IH]; cbn; intros H; [constructor|].
  apply andb_prop in H as [H1 H2]. constructor; [|apply IH; exact H2].
  intros Hin. apply mems_In in Hin. rewrite Hin in H1. discriminate.
Qed.

(* [clean], [nodd] and [split_dd] look two characters ahead: their equation on a :: b :: t, and the matching induction *)
Lemma clean_cons2 a b t : clean (a :: b :: t) = negb (is_us a && is_us b) && clean (b :: t).
Proof. reflexivity. Qed.

Lemma nodd_cons2 a b t : nodd (a :: b :: t) = negb (is_us a && is_us b) && nodd (b :: t).
Proof. reflexivity. Qed.

Lemma split_dd_cons2 a b t : split_dd (a :: b :: t) =
  if is_us a && is_us b then ([], Some t) else let '(p, r) := split_dd (b :: t) in (a :: p, r).
Proof. reflexivity. Qed.

Lemma str_ind2 (P : str -> Prop) :
  P [] -> (forall a, P [a]) -> (forall a b t, P (b :: t) -> P (a :: b :: t)) -> forall s, P s.
Proof. intros H0 H1 H2. induction s as [|a s IH]; [exact H0|]. destruct s as [|b t]; [apply H1|apply H2, IH]. Qed.

(* a clean prefix is found again by [split_dd]: it has no "__", and its last character cannot pair with the separator *)
Lemma split_dd_clean x r : clean x = true -> split_dd (x ++ dd ++ r) = (x, Some r).
Proof.
  induction x as [|a|a b t IH] using str_ind2; intros H.
  - reflexivity.
  - cbn in H |- *. destruct (is_us a); [discriminate|reflexivity].
  - rewrite clean_cons2 in H. apply andb_prop in H as [Hab Ht]. apply negb_true_iff in Hab.
    specialize (IH Ht). cbn [app] in IH |- *. rewrite split_dd_cons2, Hab, IH. reflexivity.
Qed.

Lemma split_dd_nodd x : nodd x = true -> split_dd x = (x, None).
Proof.
  induction x as [|a|a b t IH] using str_ind2; intros H; try reflexivity.
  rewrite nodd_cons2 in H. apply andb_prop in H as [Hab Ht]. apply negb_true_iff in Hab.
  rewrite split_dd_cons2, Hab, (IH Ht). reflexivity.
Qed.

Lemma clean_nodd x : clean x = true -> nodd x = true.
Proof.
  induction x as [|a|a b t IH] using str_ind2; intros H; try reflexivity.
  rewrite clean_cons2 in H. apply andb_prop in H as [Hab Ht]. rewrite nodd_cons2, Hab, (IH Ht). reflexivity.
Qed.

Lemma clean_cons_nonus a y : is_us a = false -> clean y = true -> clean (a :: y) = true.
Proof. intros Ha Hy. destruct y as [|b y']; cbn; rewrite Ha; [reflexivity|]. cbn. exact Hy. Qed.

Lemma clean_app x y : clean x = true -> clean y = true -> clean (x ++ y) = true.
Proof.
  induction x as [|a|a b t IH] using str_ind2; intros Hx Hy.
  - exact Hy.
  - apply clean_cons_nonus; [|exact Hy]. apply negb_true_iff. exact Hx.
  - rewrite clean_cons2 in Hx. apply andb_prop in Hx as [Hab Ht].
    specialize (IH Ht Hy). cbn [app] in IH |- *. rewrite clean_cons2, Hab, IH. reflexivity.
Qed.

Lemma dd_inj x x' r r' : clean x = true -> clean x' = true -> x ++ dd ++ r = x' ++ dd ++ r' -> x = x' /\ r = r'.
Proof.
  intros Hx Hx' E. apply (f_equal split_dd) in E. rewrite !split_dd_clean in E by assumption.
  injection E as E1 E2. split; assumption.
Qed.

Lemma nodd_vs_dd y x r : nodd y = true -> clean x = true -> y <> x ++ dd ++ r.
Proof.
  intros Hy Hx E. apply (f_equal split_dd) in E. rewrite split_dd_nodd, split_dd_clean in E by assumption. discriminate.
Qed.

Lemma memc_us_mid a b : memc us (a ++ us :: b) = true.
Proof. unfold memc. rewrite existsb_app. cbn. apply orb_true_r. Qed.

Lemma no_us_cons c v : no_us (c :: v) = true -> is_us c = false /\ no_us v = true.
Proof.
  unfold no_us, memc, is_us. cbn [existsb]. rewrite negb_orb. intros H. apply andb_prop in H as [H1 H2].
  split; [|exact H2]. rewrite Ascii.eqb_sym. destruct (Ascii.eqb us c); [discriminate|reflexivity].
Qed.

Lemma no_us_clean v : no_us v = true -> clean v = true.
Proof.
  induction v as [|c v IH]; intros H; [reflexivity|].
  apply no_us_cons in H. destruct H as [H1 H2]. apply clean_cons_nonus; [exact H1|apply IH; exact H2].
Qed.

Lemma clean_seg p : param_ok p = true -> clean (seg p) = true.
Proof.
  unfold param_ok, name_ok, value_ok, seg. intros H. apply andb_prop in H as [Hk Hv]. apply andb_prop in Hv as [Hv Hne].
  apply clean_app; [exact Hk|]. destruct (snd p) as [|c v]; [discriminate|].
  rewrite clean_cons2, (proj1 (no_us_cons c v Hv)), andb_false_r. apply no_us_clean. exact Hv.
Qed.

(* the last "_" of a segment whose value has none: name and value are determined *)
Lemma seg_inj k : forall k' v v', no_us v = true -> no_us v' = true -> k ++ us :: v = k' ++ us :: v' -> k = k' /\ v = v'.
Proof.
  induction k as [|a k IH]; intros [|a' k'] v v' Hv Hv' E; cbn [app] in E.
  - injection E as E. split; [reflexivity|exact E].
  - exfalso. injection E as _ E. unfold no_us in Hv. rewrite E, memc_us_mid in Hv. discriminate.
  - exfalso. injection E as _ E. unfold no_us in Hv'. rewrite <- E, memc_us_mid in Hv'. discriminate.
  - injection E as -> E. destruct (IH k' v v' Hv Hv' E) as [-> ->]. split; reflexivity.
Qed.

Lemma seg_eq p q : param_ok p = true -> param_ok q = true -> seg p = seg q -> p = q.
Proof.
  unfold param_ok, value_ok, seg. destruct p as [k v], q as [k' v']. cbn [fst snd]. intros Hp Hq E.
  apply andb_prop in Hp, Hq. destruct Hp as [_ Hp]. destruct Hq as [_ Hq].
  apply andb_prop in Hp, Hq. destruct Hp as [Hp _]. destruct Hq as [Hq _].
  destruct (seg_inj k k' v v' Hp Hq E) as [-> ->]. reflexivity.
Qed.

(* a clean head followed by "__"-separated segments is split off uniquely: [split_dd] finds the head again, or finds no
   separator at all when no segment follows *)
Lemma head_inj x1 x2 p1 p2 : clean x1 = true -> clean x2 = true ->
  x1 ++ params_tail p1 = x2 ++ params_tail p2 -> x1 = x2 /\ params_tail p1 = params_tail p2.
Proof.
  intros Hx1 Hx2 E. destruct p1 as [|q1 p1], p2 as [|q2 p2]; cbn [params_tail] in *.
  - rewrite !app_nil_r in E. split; [exact E|reflexivity].
  - exfalso. rewrite app_nil_r in E. exact (nodd_vs_dd _ _ _ (clean_nodd _ Hx1) Hx2 E).
  - exfalso. rewrite app_nil_r in E. exact (nodd_vs_dd _ _ _ (clean_nodd _ Hx2) Hx1 (eq_sym E)).
  - destruct (dd_inj _ _ _ _ Hx1 Hx2 E) as [Ex Er]. split; [exact Ex|]. f_equal. exact Er.
Qed.

Lemma tail_inj p1 : forall p2, forallb param_ok p1 = true -> forallb param_ok p2 = true ->
  params_tail p1 = params_tail p2 -> p1 = p2.
Proof.
  induction p1 as [|q1 p1 IH]; intros [|q2 p2] H1 H2 E; try discriminate E; [reflexivity|].
  cbn [params_tail forallb] in *. apply andb_prop in H1 as [Hq1 H1]. apply andb_prop in H2 as [Hq2 H2].
  apply app_inv_head in E. destruct (head_inj _ _ _ _ (clean_seg _ Hq1) (clean_seg _ Hq2) E) as [Es Et].
  rewrite (seg_eq q1 q2 Hq1 Hq2 Es), (IH p2 H1 H2 Et). reflexivity.
Qed.

Lemma clean_noparam c : clean c = true -> clean (c ++ lit "_noparam") = true.
Proof. intros H. apply clean_app; [exact H|reflexivity]. Qed.

(* C13: components that differ in class name or parameters never get the same full name — under the proviso *)
Theorem full_name_inj c1 p1 c2 p2 :
  name_ok c1 = true -> name_ok c2 = true -> forallb param_ok p1 = true -> forallb param_ok p2 = true ->
  full_name c1 p1 = full_name c2 p2 -> c1 = c2 /\ p1 = p2.
Proof.
  unfold full_name, name_ok. intros Hc1 Hc2 H1 H2 E.
  destruct p1 as [|q1 p1], p2 as [|q2 p2].
  - apply app_inv_tail in E. split; [exact E|reflexivity].
  - exfalso. exact (nodd_vs_dd _ _ _ (clean_nodd _ (clean_noparam c1 Hc1)) Hc2 E).
  - exfalso. exact (nodd_vs_dd _ _ _ (clean_nodd _ (clean_noparam c2 Hc2)) Hc1 (eq_sym E)).
  - destruct (head_inj c1 c2 (q1 :: p1) (q2 :: p2) Hc1 Hc2 E) as [Ec Et].
    split; [exact Ec|exact (tail_inj _ _ H1 H2 Et)].
Qed.

Lemma params_tail_cons k v p : params_tail ((k, v) :: p) = (dd ++ k ++ [us]) ++ v ++ params_tail p.
Proof. cbn [params_tail]. unfold seg. cbn [fst snd]. rewrite <- !app_assoc. reflexivity. Qed.

(* same class (same name, same parameter names): only the values matter, and a much weaker proviso suffices *)
Lemma tail_inj_same_keys p1 : forall p2, map fst p1 = map fst p2 ->
  forallb (fun p => value_weak_ok (snd p)) p1 = true -> forallb (fun p => value_weak_ok (snd p)) p2 = true ->
  params_tail p1 = params_tail p2 -> p1 = p2.
Proof.
  unfold value_weak_ok.
  induction p1 as [|[k v] p1 IH]; intros [|[k' v'] p2] K H1 H2 E; try discriminate; [reflexivity|].
  cbn [map fst] in K. injection K as <- K.
  cbn [forallb snd] in H1, H2. apply andb_prop in H1 as [Hv H1]. apply andb_prop in H2 as [Hv' H2].
  rewrite !params_tail_cons in E. apply app_inv_head in E.
  destruct (head_inj _ _ _ _ Hv Hv' E) as [-> Et]. rewrite (IH p2 K H1 H2 Et). reflexivity.
Qed.

Theorem full_name_inj_same_keys c p1 p2 : map fst p1 = map fst p2 ->
  forallb (fun p => value_weak_ok (snd p)) p1 = true -> forallb (fun p => value_weak_ok (snd p)) p2 = true ->
  full_name c p1 = full_name c p2 -> p1 = p2.
Proof.
  unfold full_name. intros K H1 H2 E. apply app_inv_head in E.
  destruct p1 as [|q1 p1], p2 as [|q2 p2]; try discriminate K; [reflexivity|].
  cbn [params_str] in E. apply tail_inj_same_keys; assumption.
Qed.

(* without the provisos the name function is NOT injective *)
Theorem full_name_collision_refuted : exists c p1 p2, p1 <> p2 /\ full_name c p1 = full_name c p2.
Proof.   (* C(x="1__y_2")  vs  C(x=1, y=2) *)
  exists (lit "C"), [(lit "x", lit "1__y_2")], [(lit "x", lit "1"); (lit "y", lit "2")].
  split; [discriminate|]. vm_compute. reflexivity.
Qed.

(* "identifiers without __ / values without __" is NOT enough: "_" in a value moves the name/value boundary *)
Theorem full_name_collision_weak_proviso : exists c p1 p2, p1 <> p2 /\
  forallb (fun p => name_ok (fst p) && clean (snd p) && nonempty (snd p)) (p1 ++ p2) = true /\ name_ok c = true /\
  full_name c p1 = full_name c p2.
Proof.   (* C(a="b_c")  vs  C(a_b="c") *)
  exists (lit "C"), [(lit "a", lit "b_c")], [(lit "a_b", lit "c")].
  split; [discriminate|]. vm_compute. repeat split.
Qed.

(* one class, two parameters, values containing "__": the same instance name for different parameter values *)
Theorem full_name_collision_same_keys : exists c p1 p2, map fst p1 = map fst p2 /\ p1 <> p2 /\
  full_name c p1 = full_name c p2.
Proof.   (* C(x="1__y_2", y="3")  vs  C(x="1", y="2__y_3") *)
  exists (lit "C"), [(lit "x", lit "1__y_2"); (lit "y", lit "3")], [(lit "x", lit "1"); (lit "y", lit "2__y_3")].
  split; [reflexivity|]. split; [discriminate|]. vm_compute. reflexivity.
Qed.

Section UniqueNameInj.
Variable hash : str -> str.
Variable observed : list str.                       (* the parameter strings that were hashed in the run *)
Hypothesis hash_inj : forall x y, In x observed -> In y observed -> hash x = hash y -> x = y.
Hypothesis hash_no_us : forall x, In x observed -> no_us (hash x) = true.      (* hex digits *)

(* a hashed name against a plain one: after the first "__" one has a digest without "_", the other a segment with one *)
Lemma hashed_vs_plain c1 p1 c2 p2 : name_ok c1 = true -> name_ok c2 = true -> In (params_str p1) observed ->
  c1 ++ dd ++ hash (params_str p1) = full_name c2 p2 -> False.
Proof.
  unfold full_name, name_ok. intros Hc1 Hc2 Ho E. destruct p2 as [|q r]; cbn [params_str params_tail] in E.
  - exact (nodd_vs_dd _ _ _ (clean_nodd _ (clean_noparam c2 Hc2)) Hc1 (eq_sym E)).
  - destruct (dd_inj _ _ _ _ Hc1 Hc2 E) as [_ E'].
    pose proof (hash_no_us _ Ho) as N. unfold no_us in N. rewrite E' in N. unfold seg in N.
    rewrite <- app_assoc in N. cbn [app] in N. rewrite memc_us_mid in N. discriminate.
Qed.

Theorem unique_name_inj c1 p1 c2 p2 :
  name_ok c1 = true -> name_ok c2 = true -> forallb param_ok p1 = true -> forallb param_ok p2 = true ->
  (needs_hash (full_name c1 p1) = true -> In (params_str p1) observed) ->
  (needs_hash (full_name c2 p2) = true -> In (params_str p2) observed) ->
  unique_name hash c1 p1 = unique_name hash c2 p2 -> c1 = c2 /\ p1 = p2.
Proof.
  unfold unique_name. intros Hc1 Hc2 H1 H2 O1 O2 E.
  destruct (needs_hash (full_name c1 p1)) eqn:N1; destruct (needs_hash (full_name c2 p2)) eqn:N2.
  - specialize (O1 eq_refl). specialize (O2 eq_refl). destruct (dd_inj _ _ _ _ Hc1 Hc2 E) as [E1 E2].
    apply (hash_inj _ _ O1 O2) in E2.
    apply full_name_inj; try assumption. unfold full_name. rewrite E1, E2. reflexivity.
  - exfalso. exact (hashed_vs_plain c1 p1 c2 p2 Hc1 Hc2 (O1 eq_refl) E).
  - exfalso. symmetry in E. exact (hashed_vs_plain c2 p2 c1 p1 Hc2 Hc1 (O2 eq_refl) E).
  - apply full_name_inj; assumption.
Qed.
End UniqueNameInj.

Lemma unique_name_plain hash c p : needs_hash (full_name c p) = false -> unique_name hash c p = full_name c p.
Proof. unfold unique_name. intros ->. reflexivity. Qed.

Lemma assoc_In t : forall x, In x (map fst t) -> In (x, assoc t x) t.
Proof.
  induction t as [|[k v] r IH]; intros x Hx; [destruct Hx|]. cbn [assoc].
  destruct (str_eqb k x) eqn:E.
  - apply str_eqb_eq in E. subst. left. reflexivity.
  - right. apply IH. destruct Hx as [Hx|Hx]; [|exact Hx]. cbn in Hx. subst. rewrite str_eqb_refl in E. discriminate.
Qed.

Lemma inj_table_sound t : inj_table_b t = true ->
  forall k1 v k2, In (k1, v) t -> In (k2, v) t -> k1 = k2.
Proof.
  induction t as [|[k v0] r IH]; intros H k1 v k2 H1 H2; [destruct H1|].
  cbn [inj_table_b] in H. apply andb_prop in H as [Ha Hr]. rewrite forallb_forall in Ha.
  assert (Hk : forall k', In (k', v0) r -> k' = k).
  { intros k' Hk'. specialize (Ha _ Hk'). cbn [fst snd] in Ha. rewrite str_eqb_refl, orb_false_r in Ha.
    apply str_eqb_eq. exact Ha. }
  destruct H1 as [H1|H1]; destruct H2 as [H2|H2].
  - congruence.
  - injection H1 as -> ->. symmetry. exact (Hk k2 H2).
  - injection H2 as -> ->. exact (Hk k1 H1).
  - exact (IH Hr k1 v k2 H1 H2).
Qed.

Theorem assoc_inj_on_keys t : inj_table_b t = true ->
  forall x y, In x (map fst t) -> In y (map fst t) -> assoc t x = assoc t y -> x = y.
Proof.
  intros H x y Hx Hy E. apply assoc_In in Hx, Hy. rewrite E in Hx. exact (inj_table_sound t H x _ y Hx Hy).
Qed.

Definition ident_shape_P (s : str) : Prop :=
  exists c r, s = c :: r /\ In c first_chars /\ Forall (fun x => In x rest_chars) r.
Definition legal (s : str) : Prop := ident_shape_P s /\ ~ In s sv_reserved.

Lemma legal_b_sound s : legal_b s = true -> legal s.
Proof.
  unfold legal_b, legal, ident_shape, ident_shape_P. intros H. apply andb_prop in H as [H1 H2]. split.
  - destruct s as [|c r]; [discriminate H1|]. apply andb_prop in H1 as [Hc Hr].
    exists c, r. split; [reflexivity|]. split; [apply memc_In; exact Hc|].
    apply Forall_forall. intros x Hx. rewrite forallb_forall in Hr. apply memc_In. exact (Hr x Hx).
  - intros Hin. apply mems_In in Hin. rewrite Hin in H2. discriminate.
Qed.

(* every identifier-bearing scope of the table: compilation unit, struct members, each module's scopes *)
Definition scope_of (t : table) (sc : list str) : Prop :=
  sc = unit_scope t \/ (exists ty, In ty (t_types t) /\ sc = snd ty) \/ (exists m, In m (t_mods t) /\ In sc (m_scopes m)).

Lemma scope_of_all t sc : scope_of t sc -> In sc (all_scopes t).
Proof.
  unfold all_scopes. intros [->|[[ty [Hty ->]]|[m [Hm Hsc]]]].
  - left. reflexivity.
  - right. apply in_or_app. left. apply in_map. exact Hty.
  - right. apply in_or_app. right. apply in_flat_map. exists m. split; assumption.
Qed.

Theorem modules_ok_sound t : modules_ok t = true ->
  (* every module is defined exactly once *)
  NoDup (mod_names t) /\
  (* every instantiated module name is defined *)
  (forall m i, In m (t_mods t) -> In i (m_insts m) -> exists m', In m' (t_mods t) /\ m_name m' = i) /\
  (* identifiers are legal: [A-Za-z_][A-Za-z0-9_$]* and not reserved *)
  (forall sc x, scope_of t sc -> In x sc -> legal x) /\
  (* identifiers are unique within their scope *)
  (forall sc, scope_of t sc -> NoDup sc).
Proof.
  unfold modules_ok. intros H. apply andb_prop in H as [H H4]. apply andb_prop in H as [H H3]. apply andb_prop in H as [H1 H2].
  split; [|split; [|split]].
  - apply nodup_s_NoDup. exact H1.
  - intros m i Hm Hi. unfold insts_defined_b in H2. rewrite forallb_forall in H2. specialize (H2 m Hm).
    rewrite forallb_forall in H2. specialize (H2 i Hi). apply mems_In in H2. unfold mod_names in H2.
    apply in_map_iff in H2. destruct H2 as [m' [E Hm']]. exists m'. split; assumption.
  - intros sc x Hsc Hx. unfold idents_legal_b in H3. rewrite forallb_forall in H3. specialize (H3 sc (scope_of_all t sc Hsc)).
    rewrite forallb_forall in H3. apply legal_b_sound. exact (H3 x Hx).
  - intros sc Hsc. unfold scopes_unique_b in H4. rewrite forallb_forall in H4. apply nodup_s_NoDup.
    apply H4. apply scope_of_all. exact Hsc.
Qed.

Lemma body_of_Some t n b : body_of t n = Some b -> exists m, In m (t_mods t) /\ m_name m = n /\ m_body m = b.
Proof.
  unfold body_of. destruct (find _ _) as [m|] eqn:F; [|discriminate]. cbn. intros E. injection E as E.
  apply find_some in F. destruct F as [Hm Hn]. apply str_eqb_eq in Hn. exists m. tauto.
Qed.

(* two instances share a module definition only if their bodies are identical (and identical to the one emitted) *)
Theorem sharing_ok_sound t l : sharing_ok t l = true ->
  (forall a b, In a l -> In b l -> fst a = fst b -> snd a = snd b) /\
  (forall a, In a l -> exists m, In m (t_mods t) /\ m_name m = fst a /\ m_body m = snd a).
Proof.
  unfold sharing_ok. intros H. rewrite forallb_forall in H.
  assert (K : forall a, In a l -> body_of t (fst a) = Some (snd a)).
  { intros a Ha. specialize (H a Ha). destruct (body_of t (fst a)) as [b|]; [|discriminate].
    apply Z.eqb_eq in H. congruence. }
  split.
  - intros a b Ha Hb E. pose proof (K a Ha) as Ka. pose proof (K b Hb) as Kb. rewrite E in Ka. congruence.
  - intros a Ha. apply body_of_Some. exact (K a Ha).
Qed.

Definition functional (l : list inst) : Prop := forall a b, In a l -> In b l -> fst a = fst b -> snd a = snd b.
Definition same_map (d1 d2 : list inst) : Prop := forall n, dlookup n d1 = dlookup n d2.

Lemma functional_b_spec l : functional_b l = true <-> functional l.
Proof.
  unfold functional_b, functional. rewrite forallb_forall. split.
  - intros H a b Ha Hb E. specialize (H a Ha). rewrite forallb_forall in H. specialize (H b Hb).
    rewrite E, str_eqb_refl in H. cbn in H. apply Z.eqb_eq. exact H.
  - intros H a Ha. rewrite forallb_forall. intros b Hb. destruct (str_eqb (fst a) (fst b)) eqn:E; [|reflexivity].
    apply str_eqb_eq in E. cbn. apply Z.eqb_eq. exact (H a b Ha Hb E).
Qed.

Lemma dlookup_app n d e : dlookup n (d ++ e) = match dlookup n d with Some b => Some b | None => dlookup n e end.
Proof. induction d as [|kb d IH]; cbn; [reflexivity|]. destruct (str_eqb (fst kb) n); [reflexivity|exact IH]. Qed.

Lemma dlookup_fill l : forall d n,
  dlookup n (fold_left dinsert l d) = match dlookup n d with Some b => Some b | None => dlookup n l end.
Proof.
  induction l as [|i l IH]; intros d n; cbn [fold_left].
  - destruct (dlookup n d); reflexivity.
  - rewrite IH. unfold dinsert. cbn [dlookup]. destruct (dlookup (fst i) d) as [b|] eqn:Li.
    + destruct (dlookup n d) as [b'|] eqn:Ln; [reflexivity|].
      destruct (str_eqb (fst i) n) eqn:E; [|reflexivity]. apply str_eqb_eq in E. rewrite E in Li. congruence.
    + rewrite dlookup_app. destruct (dlookup n d); [reflexivity|]. cbn [dlookup]. destruct (str_eqb (fst i) n); reflexivity.
Qed.

(* the dictionary maps a name to the body of the FIRST instance with that name in traversal order *)
Lemma first_wins_lookup l n : dlookup n (first_wins l) = dlookup n l.
Proof. unfold first_wins. rewrite dlookup_fill. reflexivity. Qed.

Lemma dlookup_spec n l : match dlookup n l with Some b => In (n, b) l | None => forall b, ~ In (n, b) l end.
Proof.
  induction l as [|[k v] l IH]; cbn [dlookup fst snd]; [intros b []|]. destruct (str_eqb k n) eqn:E.
  - apply str_eqb_eq in E. subst. left. reflexivity.
  - destruct (dlookup n l); [right; exact IH|]. intros b [Hin|Hin]; [|exact (IH b Hin)].
    injection Hin as -> ->. rewrite str_eqb_refl in E. discriminate.
Qed.

Lemma perm_first n b l : In (n, b) l -> exists l', Permutation l l' /\ dlookup n l' = Some b.
Proof.
  intros H. destruct (in_split _ _ H) as [l1 [l2 ->]]. exists ((n, b) :: l1 ++ l2).
  split; [apply Permutation_sym, Permutation_middle|]. cbn [dlookup fst snd]. rewrite str_eqb_refl. reflexivity.
Qed.

Theorem first_wins_ok l :
  (forall l', Permutation l l' -> same_map (first_wins l) (first_wins l')) <-> functional l.
Proof.
  split.
  - (* order independence -> functional: put either instance first *)
    intros H [na ba] [nb bb] Ha Hb E. cbn [fst snd] in *. subst nb.
    destruct (perm_first _ _ _ Ha) as [la [Pa La]]. destruct (perm_first _ _ _ Hb) as [lb [Pb Lb]].
    pose proof (H _ Pa na) as Ea. pose proof (H _ Pb na) as Eb. rewrite !first_wins_lookup in Ea, Eb. congruence.
  - intros F l' P n. rewrite !first_wins_lookup.
    pose proof (dlookup_spec n l) as S. pose proof (dlookup_spec n l') as S'.
    destruct (dlookup n l) as [b|]; destruct (dlookup n l') as [b'|].
    + f_equal. apply (Permutation_in _ (Permutation_sym P)) in S'. exact (F (n, b) (n, b') S S' eq_refl).
    + exfalso. exact (S' b (Permutation_in _ P S)).
    + exfalso. exact (S b' (Permutation_in _ (Permutation_sym P) S')).
    + reflexivity.
Qed.

Lemma N_of_ascii_inj x y : N_of_ascii x = N_of_ascii y -> x = y.
Proof. intros H. rewrite <- (ascii_N_embedding x), <- (ascii_N_embedding y), H. reflexivity. Qed.

Lemma str_leb_cons x a y b : str_leb (x :: a) (y :: b) =
  match (N_of_ascii x ?= N_of_ascii y)%N with Lt => true | Eq => str_leb a b | Gt => false end.
Proof.
  cbn [str_leb]. unfold N.ltb. destruct (N.compare_spec (N_of_ascii x) (N_of_ascii y)) as [E|L|G].
  - rewrite E, N.eqb_refl. reflexivity.
  - reflexivity.
  - apply N.lt_neq, N.neq_sym, N.eqb_neq in G. rewrite G. reflexivity.
Qed.

Lemma str_leb_total a : forall b, str_leb a b = true \/ str_leb b a = true.
Proof.
  induction a as [|x a IH]; intros [|y b]; try (left; reflexivity); try (right; reflexivity).
  rewrite !str_leb_cons, (N.compare_antisym (N_of_ascii x) (N_of_ascii y)).
  destruct (N_of_ascii x ?= N_of_ascii y)%N; cbn [CompOpp]; [apply IH|left; reflexivity|right; reflexivity].
Qed.

Lemma str_leb_antisym a : forall b, str_leb a b = true -> str_leb b a = true -> a = b.
Proof.
  induction a as [|x a IH]; intros [|y b] L1 L2; [reflexivity|discriminate L2|discriminate L1|].
  rewrite str_leb_cons in L1, L2. rewrite (N.compare_antisym (N_of_ascii x) (N_of_ascii y)) in L2.
  destruct (N.compare_spec (N_of_ascii x) (N_of_ascii y)) as [E|L|G]; cbn [CompOpp] in L2; try discriminate.
  apply N_of_ascii_inj in E. subst y. f_equal. exact (IH b L1 L2).
Qed.

Lemma str_leb_trans a : forall b c, str_leb a b = true -> str_leb b c = true -> str_leb a c = true.
Proof.
  induction a as [|x a IH]; intros [|y b] [|z c] L1 L2; try reflexivity; try discriminate.
  rewrite str_leb_cons in *.
  destruct (N.compare_spec (N_of_ascii x) (N_of_ascii y)) as [E1|O1|G1]; try discriminate.
  - rewrite E1. destruct (N_of_ascii y ?= N_of_ascii z)%N; try discriminate; [exact (IH b c L1 L2)|reflexivity].
  - destruct (N.compare_spec (N_of_ascii y) (N_of_ascii z)) as [E2|O2|G2]; try discriminate.
    + rewrite <- E2. apply N.compare_lt_iff in O1. rewrite O1. reflexivity.
    + pose proof (N.lt_trans _ _ _ O1 O2) as O. apply N.compare_lt_iff in O. rewrite O. reflexivity.
Qed.

Section SortProofs.
Context {A : Type}.
Variable key : A -> str.
Definition kle (x y : A) : Prop := str_leb (key x) (key y) = true.

Lemma insert_perm x l : Permutation (x :: l) (insert_by key x l).
Proof.
  induction l as [|y r IH]; cbn; [apply Permutation_refl|].
  destruct (str_leb (key x) (key y)); [apply Permutation_refl|].
  apply (Permutation_trans (perm_swap y x r)). apply perm_skip. exact IH.
Qed.

Lemma sort_perm l : Permutation l (sort_by key l).
Proof.
  induction l as [|x l IH]; cbn; [constructor|].
  apply (Permutation_trans (perm_skip x IH)). apply insert_perm.
Qed.

Lemma insert_sorted x l : StronglySorted kle l -> StronglySorted kle (insert_by key x l).
Proof.
  induction l as [|y r IH]; intros S; cbn.
  - constructor; [constructor|constructor].
  - pose proof (StronglySorted_inv S) as [Sr Hy]. destruct (str_leb (key x) (key y)) eqn:E.
    + constructor; [exact S|]. constructor; [exact E|].
      eapply Forall_impl; [|exact Hy]. intros z Hz. exact (str_leb_trans _ _ _ E Hz).
    + constructor; [exact (IH Sr)|]. apply (Permutation_Forall (insert_perm x r)). constructor; [|exact Hy].
      destruct (str_leb_total (key x) (key y)) as [T|T]; [congruence|exact T].
Qed.

Lemma sort_sorted l : StronglySorted kle (sort_by key l).
Proof. induction l as [|x l IH]; cbn; [constructor|apply insert_sorted; exact IH]. Qed.

Lemma sorted_perm_unique s1 : forall s2, StronglySorted kle s1 -> StronglySorted kle s2 ->
  NoDup (map key s1) -> Permutation s1 s2 -> s1 = s2.
Proof.
  induction s1 as [|a t1 IH]; intros s2 S1 S2 ND P.
  - apply Permutation_nil in P. congruence.
  - destruct s2 as [|b t2]; [apply Permutation_sym, Permutation_nil in P; discriminate|].
    apply StronglySorted_inv in S1, S2. destruct S1 as [S1 Fa]. destruct S2 as [S2 Fb].
    rewrite Forall_forall in Fa, Fb. cbn [map] in ND. apply NoDup_cons_iff in ND. destruct ND as [Na ND].
    assert (E : a = b).
    { pose proof (Permutation_in a P (or_introl eq_refl)) as Ia. destruct Ia as [Ia|Ia]; [congruence|].
      pose proof (Permutation_in b (Permutation_sym P) (or_introl eq_refl)) as Ib. destruct Ib as [Ib|Ib]; [congruence|].
      exfalso. apply Na. pose proof (str_leb_antisym _ _ (Fa b Ib) (Fb a Ia)) as K. rewrite K. apply in_map. exact Ib. }
    subst b. f_equal. apply IH; try assumption. exact (Permutation_cons_inv P).
Qed.

(* a collection with distinct names, presented in two different iteration orders, sorts to the same list *)
Theorem sort_canonical l1 l2 : Permutation l1 l2 -> NoDup (map key l1) -> sort_by key l1 = sort_by key l2.
Proof.
  intros P ND. apply sorted_perm_unique; try apply sort_sorted.
  - apply (Permutation_NoDup (Permutation_map key (sort_perm l1))). exact ND.
  - apply (Permutation_trans (Permutation_sym (sort_perm l1))). apply (Permutation_trans P). apply sort_perm.
Qed.
End SortProofs.

(* ASSUMED about the inputs: (1) the set/dict iteration hands over every element exactly once, i.e. the two
   presentations are permutations of each other; (2) the names are distinct (dictionary keys / attribute names);
   (3) the construction-ordered part is the same list in both runs (Python list / dict insertion order). *)
Theorem order_canonical {A B : Type} (key : A -> str) (ra : A -> str) (rb : B -> str) (n1 n2 : list A) (o : list B) :
  Permutation n1 n2 -> NoDup (map key n1) -> layout key ra rb n1 o = layout key ra rb n2 o.
Proof. intros P ND. unfold layout. rewrite (sort_canonical key n1 n2 P ND). reflexivity. Qed.
