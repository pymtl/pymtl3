(* SV/SvProofs.v — theorems about the SystemVerilog semantics model: sizing and evaluation (SvSizing), statements and
   the non-blocking queue (SvEval), the single-driver acceptor (SvDrivers).  No axioms. *)
From Coq Require Import FMapPositive.
From PV Require Import Base.Prelude Bits.BitsSpec Bits.BitsLemmas SV.SvSyntax SV.SvSizing SV.SvEval SV.SvDrivers.
Open Scope Z_scope.

(* Forall from a pointwise proof.  f is bound outside the fix, so that `Forall_of sexpr_ind' es` inside the definition of
   sexpr_ind' is a guarded recursive call. *)
Definition Forall_of {A} {P : A -> Prop} (f : forall x, P x) : forall l, Forall P l :=
  fix go l := match l with [] => Forall_nil P | x :: r => Forall_cons x (f x) (go r) end.

Section ExprInd.
  Variable P : expr -> Prop.
  Hypothesis HLit : forall w v, P (ELit w v).
  Hypothesis HNum : forall v, P (ENum v).
  Hypothesis HId : forall x, P (EId x).
  Hypothesis HMember : forall a f, P a -> P (EMember a f).
  Hypothesis HIndex : forall a i, P a -> P i -> P (EIndex a i).
  Hypothesis HRange : forall a hi lo, P a -> P (ERange a hi lo).
  Hypothesis HPlus : forall a b w, P a -> P b -> P (EPlusRange a b w).
  Hypothesis HConcat : forall es, Forall P es -> P (EConcat es).
  Hypothesis HRepl : forall n a, P a -> P (ERepl n a).
  Hypothesis HUn : forall o a, P a -> P (EUn o a).
  Hypothesis HBin : forall o a b, P a -> P b -> P (EBin o a b).
  Hypothesis HCond : forall c a b, P c -> P a -> P b -> P (ECond c a b).
  Hypothesis HCast : forall w a, P a -> P (ECast w a).
  Fixpoint sexpr_ind' (e : expr) : P e :=
    match e with
    | ELit w v => HLit w v
    | ENum v => HNum v
    | EId x => HId x
    | EMember a f => HMember a f (sexpr_ind' a)
    | EIndex a i => HIndex a i (sexpr_ind' a) (sexpr_ind' i)
    | ERange a hi lo => HRange a hi lo (sexpr_ind' a)
    | EPlusRange a b w => HPlus a b w (sexpr_ind' a) (sexpr_ind' b)
    | EConcat es => HConcat es (Forall_of sexpr_ind' es)
    | ERepl n a => HRepl n a (sexpr_ind' a)
    | EUn o a => HUn o a (sexpr_ind' a)
    | EBin o a b => HBin o a b (sexpr_ind' a) (sexpr_ind' b)
    | ECond c a b => HCond c a b (sexpr_ind' c) (sexpr_ind' a) (sexpr_ind' b)
    | ECast w a => HCast w a (sexpr_ind' a)
    end.
End ExprInd.

Section StmtInd.
  Variable P : stmt -> Prop.
  Hypothesis HB : forall l r, P (SBlocking l r).
  Hypothesis HN : forall l r, P (SNonBlocking l r).
  Hypothesis HI : forall c t f, Forall P t -> Forall P f -> P (SIf c t f).
  Hypothesis HF : forall v i c b n s body, Forall P body -> P (SFor v i c b n s body).
  Fixpoint sstmt_ind' (s : stmt) : P s :=
    match s with
    | SBlocking l r => HB l r
    | SNonBlocking l r => HN l r
    | SIf c t f => HI c t f (Forall_of sstmt_ind' t) (Forall_of sstmt_ind' f)
    | SFor v i c b n s body => HF v i c b n s body (Forall_of sstmt_ind' body)
    end.
End StmtInd.

(* The model writes its recursion through argument lists as inline fixes; each is the library function (fold_left here,
   forallb in `uniform` and `nb_only`), by conversion. *)
Lemma exec_list_fold te l : forall st,
  (fix run (l : list stmt) (st : xstate) : xstate := match l with [] => st | x :: r => run r (exec te x st) end) l st =
  exec_list te l st.
Proof. reflexivity. Qed.

Lemma tr_range W x : 0 <= W -> 0 <= tr W x < 2 ^ W.
Proof. intros H. unfold tr. apply Z.mod_pos_bound. apply Z.pow_pos_nonneg; lia. Qed.

Lemma tr_small W x : 0 <= x < 2 ^ W -> tr W x = x.
Proof. intros H. unfold tr. apply Z.mod_small; exact H. Qed.

Theorem sv_eval_range te en e : forall W, 0 <= W -> 0 <= eval te en W e < 2 ^ W.
Proof.
  induction e using sexpr_ind'; intros W HW; cbn [eval]; try (apply tr_range; exact HW).
  - (* EIndex *) destruct e1; apply tr_range; exact HW.
  - (* EUn *) destruct (is_un_ctx o); apply tr_range; exact HW.
  - (* EBin *) destruct (is_arith o); [apply tr_range; exact HW|].
    destruct (is_shift o); [apply tr_range; exact HW|].
    destruct (is_cmp o); apply tr_range; exact HW.
  - (* ECond *) destruct (truthy _); [apply IHe2|apply IHe3]; exact HW.
Qed.

Corollary sv_eval_ctx_range te en w e : 0 <= w -> 0 <= eval_ctx te en w e < 2 ^ (Z.max w (selfw te e)).
Proof. intros H. unfold eval_ctx. apply sv_eval_range. apply Z.le_trans with w; [exact H|apply Z.le_max_l]. Qed.

Definition tenv_ok (te : tenv) : Prop := forall x t ds, PM.find x te = Some (t, ds) -> 0 <= pwidth t.

Lemma read_id_range te en x : tenv_ok te ->
  0 <= read_bits en (ref_id te x) < 2 ^ (selfw te (EId x)).
Proof.
  intros Hok. unfold ref_id. cbn [selfw type_of].
  destruct (PM.find x te) as [[t ds]|] eqn:E; cbn [read_bits]; [|cbn; lia].
  cbn [r_dims r_var r_idx r_lo r_ty]. destruct ds as [|d ds].
  - destruct (vget (lookup en x) []); [|split; [lia|apply Z.pow_pos_nonneg; [lia|eapply Hok; exact E]]].
    apply Z.mod_pos_bound. apply Z.pow_pos_nonneg; [lia|eapply Hok; exact E].
  - cbn. lia.
Qed.

Lemma cat_ext te (f g : expr -> Z) es :
  Forall (fun x => f x = g x) es ->
  (fix cat (l : list expr) : Z := match l with [] => 0 | x :: r => f x * 2 ^ (sumw te r) + cat r end) es =
  (fix cat (l : list expr) : Z := match l with [] => 0 | x :: r => g x * 2 ^ (sumw te r) + cat r end) es.
Proof. induction 1 as [|x r Hx _ IH]; [reflexivity|]. rewrite Hx, IH. reflexivity. Qed.

(* By induction on e, together with the same statement for the reference a select chain resolves to.  Where `eval` passes
   max(selfw a, selfw b) down to two operands, uniformity says the two widths are equal, so each operand is evaluated at
   its own width and the induction hypothesis applies.  Only a cast of an identifier may widen: there the operand is a
   variable read, which already lies below 2^(its own width), so truncating to the wider context changes nothing. *)
Theorem sv_selfdet_eq_ctx_gen te en : tenv_ok te -> forall e, uniform te e = true ->
  eval te en (selfw te e) e = eval_sd te en e /\ resolve te en e = resolve_sd te en e.
Proof.
  intros Hok. induction e using sexpr_ind'; intros Hu; cbn [uniform] in Hu.
  1-3: split; reflexivity.
  - (* EMember *) destruct (IHe Hu) as [_ R]. split; cbn [eval eval_sd resolve resolve_sd]; rewrite R; reflexivity.
  - (* EIndex *) apply andb_prop in Hu as [Ha Hi]. destruct (IHe1 Ha) as [Ea Ra]. destruct (IHe2 Hi) as [Ei _].
    split.
    + cbn [eval eval_sd]. rewrite Ei. destruct e1; try (rewrite Ra; reflexivity). rewrite Ea. reflexivity.
    + cbn [resolve resolve_sd]. rewrite Ei, Ra. reflexivity.
  - (* ERange *) destruct (IHe Hu) as [_ R]. split; cbn [eval eval_sd resolve resolve_sd]; rewrite R; reflexivity.
  - (* EPlusRange *) apply andb_prop in Hu as [Ha Hb]. destruct (IHe1 Ha) as [_ Ra]. destruct (IHe2 Hb) as [Eb _].
    split; cbn [eval eval_sd resolve resolve_sd]; rewrite Ra, Eb; reflexivity.
  - (* EConcat *) split; [|reflexivity]. cbn [eval eval_sd]. f_equal. apply cat_ext.
    change (forallb (uniform te) es = true) in Hu. rewrite forallb_forall in Hu. rewrite Forall_forall in H |- *.
    intros x Hx. exact (proj1 (H x Hx (Hu x Hx))).
  - (* ERepl *) destruct (IHe Hu) as [E _]. split; [|reflexivity]. cbn [eval eval_sd]. rewrite E. reflexivity.
  - (* EUn *) destruct (IHe Hu) as [E _]. split; [|reflexivity]. cbn [eval eval_sd].
    destruct (is_un_ctx o) eqn:Ho.
    + assert (selfw te (EUn o e) = selfw te e) as W by (destruct o; cbn in Ho; try discriminate; reflexivity).
      rewrite W, E. reflexivity.
    + rewrite E. reflexivity.
  - (* EBin *) apply andb_prop in Hu as [Hu Hw]. apply andb_prop in Hu as [Ha Hb].
    destruct (IHe1 Ha) as [Ea _]. destruct (IHe2 Hb) as [Eb _]. split; [|reflexivity].
    cbn [eval eval_sd selfw]. destruct (is_arith o) eqn:Hao; [|destruct (is_shift o) eqn:Hso; [|destruct (is_cmp o) eqn:Hco]].
    2, 4: rewrite Ea, Eb; reflexivity.      (* shift, logical: each operand at its own width already *)
    (* arithmetic, comparison: both operands at the common width *)
    all: cbn [orb] in Hw; apply Z.eqb_eq in Hw; rewrite <- Hw in Eb |- *; rewrite Z.max_id, Ea, Eb; reflexivity.
  - (* ECond *) apply andb_prop in Hu as [Hu Hw]. apply andb_prop in Hu as [Hu Hb]. apply andb_prop in Hu as [Hc Ha].
    destruct (IHe1 Hc) as [Ec _]. destruct (IHe2 Ha) as [Ea _]. destruct (IHe3 Hb) as [Eb _]. split; [|reflexivity].
    apply Z.eqb_eq in Hw. cbn [eval eval_sd selfw]. rewrite <- Hw in Eb |- *. rewrite Z.max_id, Ec, Ea, Eb. reflexivity.
  - (* ECast *) apply andb_prop in Hu as [Ha Hw]. destruct (IHe Ha) as [E _]. split; [|reflexivity].
    cbn [eval eval_sd selfw]. apply orb_prop in Hw as [Hw|Hid].
    + apply Z.leb_le in Hw. rewrite Z.max_r by exact Hw. rewrite E. reflexivity.
    + destruct e; try discriminate. do 2 f_equal. cbn [eval eval_sd].
      pose proof (read_id_range te en x Hok) as R.
      rewrite !tr_small; [reflexivity|exact R|].
      split; [lia|]. eapply Z.lt_le_trans; [apply R|]. apply Z.pow_le_mono_r; lia.
Qed.

(* the special case of a context of the expression's own width w: every context-sensitive operator of the expression
   sees operands of one width, and the whole sits in a context of width w *)
Theorem sv_selfdet_eq_ctx te en e w : tenv_ok te -> uniform te e = true -> selfw te e = w ->
  eval_ctx te en w e = eval_sd te en e.
Proof.
  intros Hok Hu Hw. unfold eval_ctx. rewrite Hw, Z.max_id, <- Hw. apply (sv_selfdet_eq_ctx_gen te en Hok e Hu).
Qed.

(* an assignment whose target is as wide as its (uniform) right-hand side stores the width-strict value *)
Corollary sv_assign_selfdet te en l r : tenv_ok te -> assign_uniform te l r = true -> lhs_dims te l = [] ->
  assign_value te en l r = VZ (eval_sd te en r).
Proof.
  intros Hok Hu Hd. unfold assign_uniform in Hu. rewrite Hd in Hu.
  apply andb_prop in Hu as [Hu Hw]. apply andb_prop in Hu as [_ Hr]. apply Z.eqb_eq in Hw.
  unfold assign_value, rhs_value. rewrite Hd. f_equal. apply sv_selfdet_eq_ctx; [exact Hok|exact Hr|symmetry; exact Hw].
Qed.

Theorem nonblocking_defers te l r st :
  x_env (exec te (SNonBlocking l r) st) = x_env st /\
  x_pend (exec te (SNonBlocking l r) st) =
    x_pend st ++ [(resolve te (x_env st) l, assign_value te (x_env st) l r)].
Proof. split; reflexivity. Qed.

Theorem blocking_immediate te l r st :
  x_pend (exec te (SBlocking l r) st) = x_pend st /\
  x_env (exec te (SBlocking l r) st) =
    write_ref (resolve te (x_env st) l) (assign_value te (x_env st) l r) (x_env st).
Proof. split; reflexivity. Qed.

(* statements built from non-blocking assignments and conditionals only: what pymtl3 emits for an update_ff block
   without temporaries and loops *)
Fixpoint nb_only (s : stmt) {struct s} : bool :=
  match s with
  | SNonBlocking _ _ => true
  | SIf _ t f =>
      (fix all (l : list stmt) : bool := match l with [] => true | x :: r => nb_only x && all r end) t &&
      (fix all (l : list stmt) : bool := match l with [] => true | x :: r => nb_only x && all r end) f
  | _ => false
  end.
Lemma nb_only_if c t f : nb_only (SIf c t f) = forallb nb_only t && forallb nb_only f.
Proof. reflexivity. Qed.

Lemma exec_list_env te l : (forall s, In s l -> forall st, x_env (exec te s st) = x_env st) ->
  forall st, x_env (exec_list te l st) = x_env st.
Proof.
  unfold exec_list. induction l as [|x r IH]; intros H st; [reflexivity|]. cbn [fold_left].
  rewrite IH by (intros s Hs; apply H; right; exact Hs). apply H. left. reflexivity.
Qed.

(* every right-hand side and every condition of such a block reads the PRE-EDGE environment: the block never changes it *)
Theorem nb_only_env te s : nb_only s = true -> forall st, x_env (exec te s st) = x_env st.
Proof.
  induction s as [| |c t f IHt IHf|] using sstmt_ind'; intros Hn st; try discriminate Hn.
  - reflexivity.
  - rewrite nb_only_if in Hn. apply andb_prop in Hn as [Ht Hf]. rewrite forallb_forall in Ht, Hf.
    rewrite Forall_forall in IHt, IHf. cbn [exec]. rewrite !exec_list_fold.
    destruct (truthy _); apply exec_list_env; intros s Hs; [apply IHt, Ht|apply IHf, Hf]; exact Hs.
Qed.
Corollary nb_block_env te l : Forall (fun x => nb_only x = true) l -> forall st, x_env (exec_list te l st) = x_env st.
Proof. intros H. rewrite Forall_forall in H. apply exec_list_env. intros s Hs. apply nb_only_env, H, Hs. Qed.

Lemma commit_app p q en : commit (p ++ q) en = commit q (commit p en).
Proof. unfold commit. apply fold_left_app. Qed.

Lemma splice_read u lo n w : 0 <= lo -> 0 <= n -> 0 <= w < 2 ^ n -> (splice u lo (lo + n) w / 2 ^ lo) mod 2 ^ n = w.
Proof.
  intros Hlo Hn Hw. apply Z.bits_inj'. intros i Hi.
  rewrite slice_testbit by lia. rewrite splice_testbit by (try lia; replace (lo + n - lo) with n by lia; exact Hw).
  destruct (Z.ltb_spec i n).
  - replace ((lo <=? lo + i) && (lo + i <? lo + n)) with true by lia. f_equal. lia.
  - symmetry. apply (testbit_high w n); lia.
Qed.

Lemma read_write_packed x lo ty v u en : 0 <= lo -> 0 <= pwidth ty -> PM.find x en = Some (VZ u) ->
  read_bits (write_ref (Some (mkref x [] [] lo ty)) (VZ v) en) (Some (mkref x [] [] lo ty)) = v mod 2 ^ pwidth ty.
Proof.
  intros Hlo Hw Hf. unfold write_ref. cbn [r_var r_idx]. rewrite Hf. cbn [vset].
  unfold read_bits. cbn [r_dims r_var r_idx r_lo r_ty]. unfold lookup. rewrite PM.gss. cbn [vget].
  unfold store. cbn [r_dims r_lo r_ty].
  apply splice_read; [exact Hlo|exact Hw|]. apply Z.mod_pos_bound, pow2_gt0, Hw.
Qed.

(* whole scalar variable x of width w *)
Definition scalar_ref (x : ident) (w : Z) : ref := Some (mkref x [] [] 0 (PBits w)).

(* two non-blocking writes to the same variable in one block: the later one is what the register holds after the edge *)
Theorem nonblocking_last_wins x w v u p en : 0 <= w ->
  PM.find x (commit p en) = Some (VZ u) ->
  read_bits (commit (p ++ [(scalar_ref x w, VZ v)]) en) (scalar_ref x w) = v mod 2 ^ w.
Proof.
  intros Hw Hf. rewrite commit_app. cbn [commit fold_left fst snd].
  exact (read_write_packed x 0 (PBits w) v u _ (Z.le_refl 0) Hw Hf).
Qed.

(* lia reads the boolean comparisons of in_ivl / ivl_overlap (Prelude loads ZifyBool) *)
Lemma in_ivl_overlap x b a c : in_ivl x b a = true -> in_ivl x b c = true -> ivl_overlap a c = true.
Proof. unfold in_ivl, ivl_overlap. intros H1 H2. lia. Qed.

Lemma drives_disjoint d1 d2 x b : fp_disjoint (snd d1) (snd d2) = true ->
  drives d1 x b = true -> drives d2 x b = true -> False.
Proof.
  unfold fp_disjoint, drives. intros Hd H1 H2.
  apply existsb_exists in H1 as (a & Ha & Hia). apply existsb_exists in H2 as (c & Hc & Hic).
  rewrite forallb_forall in Hd. specialize (Hd a Ha). rewrite forallb_forall in Hd. specialize (Hd c Hc).
  rewrite (in_ivl_overlap x b a c Hia Hic) in Hd. discriminate.
Qed.

Lemma fp_disjoint_sym f g : fp_disjoint f g = true -> fp_disjoint g f = true.
Proof.
  unfold fp_disjoint. rewrite !forallb_forall. intros H c Hc. rewrite forallb_forall. intros a Ha.
  specialize (H a Ha). rewrite forallb_forall in H. specialize (H c Hc).
  unfold ivl_overlap in *. lia.
Qed.

(* [pairwise_disjoint] compares every driver with those after it in the list: of two positions the earlier one is the head
   at some step of the induction, and the later one lies in its tail *)
Theorem no_multi_driver_sound ds : pairwise_disjoint ds = true -> forall x b k1 k2 d1 d2,
  nth_error ds k1 = Some d1 -> nth_error ds k2 = Some d2 -> drives d1 x b = true -> drives d2 x b = true -> k1 = k2.
Proof.
  induction ds as [|d r IH]; intros Hp x b k1 k2 d1 d2 H1 H2 D1 D2; [destruct k1; discriminate|].
  cbn [pairwise_disjoint] in Hp. apply andb_prop in Hp as [Hh Ht]. rewrite forallb_forall in Hh.
  destruct k1 as [|k1], k2 as [|k2]; cbn [nth_error] in H1, H2.
  - reflexivity.
  - exfalso. injection H1 as <-. exact (drives_disjoint d d2 x b (Hh d2 (nth_error_In _ _ H2)) D1 D2).
  - exfalso. injection H2 as <-. exact (drives_disjoint d d1 x b (Hh d1 (nth_error_In _ _ H1)) D2 D1).
  - f_equal. exact (IH Ht x b k1 k2 d1 d2 H1 H2 D1 D2).
Qed.

(* if bit b-1 is covered by an interval, either that interval also covers b, or b is its upper end, and upper ends are among
   the candidate points the acceptor tests *)
Lemma covered_step ds x b total : forallb (covered ds x) (cand_points ds x total) = true ->
  0 < b < total -> covered ds x (b - 1) = true -> covered ds x b = true.
Proof.
  intros Hall Hb Hc. unfold covered in Hc. apply existsb_exists in Hc as (d & Hd & Hdr).
  unfold drives in Hdr. apply existsb_exists in Hdr as (i & Hi & Hin).
  destruct (Z.ltb_spec b (iv_hi i)) as [Hlt|Hge].
  - unfold covered. apply existsb_exists. exists d. split; [exact Hd|]. unfold drives. apply existsb_exists.
    exists i. split; [exact Hi|]. unfold in_ivl in *. lia.
  - assert (iv_hi i = b) as E by (unfold in_ivl in Hin; lia).
    rewrite forallb_forall in Hall. apply Hall. unfold cand_points. right. apply in_map_iff. exists i. split; [exact E|].
    apply filter_In. split.
    + unfold all_ivls. apply in_flat_map. exists d. split; assumption.
    + unfold in_ivl in Hin. lia.
Qed.

Theorem var_driven_sound ds dc : var_driven ds dc = true -> forall b,
  0 <= b < vbits (d_ty dc, d_dims dc) -> covered ds (d_id dc) b = true.
Proof.
  unfold var_driven. intros H b Hb. apply orb_prop in H as [H|H]; [lia|].
  destruct Hb as [Hb0 Hbt]. revert Hbt. pattern b. apply natlike_ind; [| |exact Hb0].
  - intros _. rewrite forallb_forall in H. apply H. left. reflexivity.
  - intros z Hz IH Hlt. apply (covered_step ds (d_id dc) (Z.succ z) _ H); [lia|].
    replace (Z.succ z - 1) with z by lia. apply IH. lia.
Qed.

(* both halves of the acceptor together: every bit of every variable of `vars` is driven by exactly one driver of `ds`.
   For a module, ds = `drivers F m` = input ports ++ one entry per assign / always block / instance output port, and
   vars = `mod_vars m` = ports, wires, temporaries, loop counters: `sv_single_driver F m` unfolds to the hypothesis. *)
Theorem sv_single_driver_sound ds vars : pairwise_disjoint ds && forallb (var_driven ds) vars = true ->
  forall dc, In dc vars -> forall b, 0 <= b < vbits (d_ty dc, d_dims dc) ->
  exists k d, nth_error ds k = Some d /\ drives d (d_id dc) b = true /\
    forall k' d', nth_error ds k' = Some d' -> drives d' (d_id dc) b = true -> k' = k.
Proof.
  intros H dc Hin b Hb. apply andb_prop in H as [Hp Ha]. rewrite forallb_forall in Ha.
  pose proof (var_driven_sound _ dc (Ha dc Hin) b Hb) as Hc.
  unfold covered in Hc. apply existsb_exists in Hc as (d & Hd & Hdr).
  apply In_nth_error in Hd as [k Hk]. exists k, d. split; [exact Hk|]. split; [exact Hdr|].
  intros k' d' Hk' Hdr'. exact (no_multi_driver_sound _ Hp (d_id dc) b k' k d' d Hk' Hk Hdr' Hdr).
Qed.

Lemma forallb_false_ex {A} (f : A -> bool) l : forallb f l = false -> exists x, In x l /\ f x = false.
Proof.
  induction l as [|y l IH]; [discriminate|]. cbn [forallb]. intros H. apply andb_false_iff in H as [H|H].
  - exists y. split; [left; reflexivity|exact H].
  - destruct (IH H) as (x & Hx & Hf). exists x. split; [right; exact Hx|exact Hf].
Qed.

(* the converse for the disjointness half of the acceptor: a `false` answer points at a real collision *)
Theorem multi_driver_witness ds : pairwise_disjoint ds = false ->
  exists k1 k2 d1 d2 a c, (k1 < k2)%nat /\ nth_error ds k1 = Some d1 /\ nth_error ds k2 = Some d2 /\
    In a (snd d1) /\ In c (snd d2) /\ ivl_overlap a c = true.
Proof.
  induction ds as [|d r IH]; intros H; [discriminate|]. cbn [pairwise_disjoint] in H.
  apply andb_false_iff in H as [H|H].
  - apply forallb_false_ex in H as (d' & Hd' & Hf). apply In_nth_error in Hd' as [j Hj].
    apply forallb_false_ex in Hf as (a & Ha & Hfa). apply forallb_false_ex in Hfa as (c & Hc & Hov).
    apply negb_false_iff in Hov.
    exists 0%nat, (S j), d, d', a, c. repeat split; try assumption; lia.
  - destruct (IH H) as (k1 & k2 & d1 & d2 & a & c & Hlt & H1 & H2 & Ha & Hc & Hov).
    exists (S k1), (S k2), d1, d2, a, c. repeat split; try assumption; lia.
Qed.
