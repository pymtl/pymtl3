(* SV/Flat.v — the flat port map of the Yosys backend (property C12), over ARBITRARY struct shapes.  No axioms.

   A port of bitstruct type T is emitted as one port per leaf (names mangled port__field__index...).  The layout is
   Struct.Layout.leaf_ranges: the FIRST field is the MOST significant, element 0 of a list field the LEAST significant
   (this is also what to_bits() does: Struct.LayoutProofs, property C06).  harness/c12.py compares its own ranges with
   leaf_ranges inside Coq on every run, drives each flattened input with `flat_value`, and compares each flattened
   output with `flat_value` of the packed value pymtl3 produced. *)
From PV Require Import Base.Prelude Bits.BitsLemmas Struct.Shape Struct.Layout Struct.LayoutProofs.
Open Scope Z_scope.

Definition flat_value (b : Z) (r : rng) : Z := slice b (rlo r) (rhi r).
Definition flatten (T : shape) (b : Z) : list Z := map (flat_value b) (leaf_ranges T).
(* the packed internal form built by one `assign x[hi-1:lo] = leaf;` per leaf: leaf values placed at their offsets *)
Fixpoint unflatten (rs : list rng) (vs : list Z) : Z :=
  match rs, vs with
  | r :: rs', v :: vs' => v * 2 ^ (rlo r) + unflatten rs' vs'
  | _, _ => 0
  end.

(* leaf r of a value v holds exactly bits [rlo r, rhi r) of pack T v *)
Theorem flat_port_carries_slice T v r : wf T = true -> typed T v = true -> In r (leaf_ranges T) ->
  shape_at T (rpath r) = Some (SBits (rhi r - rlo r)) /\
  leaf_at v (rpath r) = Some (flat_value (pack T v) r).
Proof. exact (pack_places_leaf T v r). Qed.

Lemma flat_value_of_leaves T v : wf T = true -> typed T v = true ->
  Forall (fun r => leaf_at v (rpath r) = Some (flat_value (pack T v) r)) (leaf_ranges T).
Proof. intros Hwf Hty. apply Forall_forall. intros r Hin. apply (flat_port_carries_slice T v r Hwf Hty Hin). Qed.

Lemma div_pow2_split b lo hi : 0 <= lo <= hi -> b / 2 ^ hi * 2 ^ (hi - lo) + slice b lo hi = b / 2 ^ lo.
Proof.
  intros H. unfold slice. replace hi with (lo + (hi - lo)) at 1 by lia. rewrite <- div_div_pow2 by lia.
  rewrite Z.mul_comm. symmetry. apply Z.div_mod. pose proof (pow2_gt0 (hi - lo)). lia.
Qed.

(* walking down a chain of ranges, the leaves placed so far together with the bits above them make up the bits of b
   above the current bottom *)
Lemma unflatten_chain b l : forall top bot, chain top l bot -> 0 <= bot ->
  b / 2 ^ top * 2 ^ top + unflatten l (map (flat_value b) l) = b / 2 ^ bot * 2 ^ bot.
Proof.
  induction l as [|r l IH]; cbn [chain map unflatten]; intros top bot H Hb.
  - subst. apply Z.add_0_r.
  - destruct H as (Ha & Hlt & Hc). pose proof (chain_le _ _ _ Hc) as Hle.
    rewrite <- (IH (rlo r) bot Hc Hb), <- (div_pow2_split b (rlo r) top) by lia. unfold flat_value. rewrite Ha.
    replace (2 ^ top) with (2 ^ (top - rlo r) * 2 ^ rlo r) by (rewrite <- Z.pow_add_r by lia; f_equal; lia). ring.
Qed.

Theorem unflatten_flatten T b : wf T = true -> 0 <= b < 2 ^ (width T) ->
  unflatten (leaf_ranges T) (flatten T b) = b.
Proof.
  intros Hwf Hb. pose proof (unflatten_chain b _ (width T) 0 (leaf_ranges_chain T Hwf) ltac:(lia)) as E.
  rewrite (Z.div_small b) in E by exact Hb. rewrite Z.pow_0_r, Z.div_1_r in E. unfold flatten. lia.
Qed.

(* the packed form assembled from the flattened ports of a value IS its to_bits() *)
Corollary unflatten_leaves_is_pack T v : wf T = true -> typed T v = true ->
  unflatten (leaf_ranges T) (flatten T (pack T v)) = pack T v.
Proof. intros Hwf Hty. apply unflatten_flatten; [exact Hwf|apply pack_range; assumption]. Qed.

(* a leaf value fits its range *)
Definition in_leaf (r : rng) (v : Z) : Prop := 0 <= v < 2 ^ (rhi r - rlo r).

Lemma unflatten_bound l : forall vs top bot, chain top l bot -> 0 <= bot -> Forall2 in_leaf l vs ->
  0 <= unflatten l vs < 2 ^ top.
Proof.
  induction l as [|r l IH]; intros vs top bot H Hb HF; inversion HF; subst; cbn [chain unflatten] in *.
  - subst. split; [lia|apply Z.pow_pos_nonneg; lia].
  - destruct H as (Ha & Hlt & Hc). pose proof (chain_le _ _ _ Hc) as Hle.
    pose proof (IH _ (rlo r) bot Hc Hb H4) as R. unfold in_leaf in H2.
    rewrite <- Ha. replace (rhi r) with ((rhi r - rlo r) + rlo r) by lia. rewrite Z.pow_add_r by lia.
    assert (0 <= y * 2 ^ rlo r <= (2 ^ (rhi r - rlo r) - 1) * 2 ^ rlo r); [|lia].
    split; [apply Z.mul_nonneg_nonneg|apply Z.mul_le_mono_nonneg_r]; lia.
Qed.

Lemma slice_placed a v x lo hi : 0 <= lo <= hi -> 0 <= v < 2 ^ (hi - lo) -> 0 <= x < 2 ^ lo ->
  slice ((a * 2 ^ (hi - lo) + v) * 2 ^ lo + x) lo hi = v.
Proof.
  intros H Hv Hx. unfold slice. rewrite Z.div_add_l by lia. rewrite (Z.div_small x) by lia.
  rewrite Z.add_0_r. rewrite Z.add_comm, Z.mod_add by lia. apply Z.mod_small. exact Hv.
Qed.

Lemma flat_of_unflatten l : forall vs top bot a, chain top l bot -> 0 <= bot -> Forall2 in_leaf l vs ->
  map (flat_value (a * 2 ^ top + unflatten l vs)) l = vs.
Proof.
  induction l as [|r l IH]; intros vs top bot a H Hb HF; inversion HF; subst; cbn [chain unflatten map] in *; [reflexivity|].
  destruct H as (Ha & Hlt & Hc). pose proof (chain_le _ _ _ Hc) as Hle.
  pose proof (unflatten_bound _ _ (rlo r) bot Hc Hb H4) as R. unfold in_leaf in H2.
  assert (a * 2 ^ top + (y * 2 ^ rlo r + unflatten l l') = (a * 2 ^ (rhi r - rlo r) + y) * 2 ^ rlo r + unflatten l l') as ->.
  { rewrite <- Ha. replace (rhi r) with ((rhi r - rlo r) + rlo r) at 1 by lia. rewrite Z.pow_add_r by lia. ring. }
  f_equal.
  - apply slice_placed; [lia|exact H2|exact R].
  - apply (IH l' (rlo r) bot (a * 2 ^ (rhi r - rlo r) + y) Hc Hb H4).
Qed.

(* flattening what was reassembled gives every leaf back: leaf values in range, laid out on a chain *)
Theorem flatten_unflatten T vs : wf T = true -> Forall2 in_leaf (leaf_ranges T) vs ->
  flatten T (unflatten (leaf_ranges T) vs) = vs.
Proof.
  intros Hwf HF. pose proof (flat_of_unflatten _ vs (width T) 0 0 (leaf_ranges_chain T Hwf) ltac:(lia) HF) as F.
  rewrite Z.mul_0_l, Z.add_0_l in F. exact F.
Qed.
