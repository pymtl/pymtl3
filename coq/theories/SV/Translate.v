(* SV/Translate.v — MODEL OF THE TRANSLATOR: what BehavioralRTLIRToVVisitorL1..L3
   (pymtl3/passes/backends/verilog/translation/behavioral/VBehavioralTranslatorL1..L3.py) emits for every RTLIR node of
   the update-block language of RTL/Syntax.v, as a term of SV/SvSyntax.v (the form harness/svparse.py reads the emitted
   text into).  Definitions only, no proofs (SV/TranslateSound.v), no axioms.

   Width annotations.  The translator prints the width the RTLIR type checker left on a node (`N'dK`, `N'(x)`, the
   padding of zext/sext, the decision trunc -> `N'(e)`).  Those are the annotations of RTL/Typing.v: [tc impl E e]
   is the model of BehavioralRTLIRTypeCheckL1/L2Pass (impl = the checker as implemented).  An annotation is final only
   after every enforcement by an ancestor: BehavioralRTLIRTypeEnforcer rewrites the width of every implicit
   Number / FreeVar / LoopVar / TmpVar / IfExp of the operand's sub-tree, the enforcement of the OUTERMOST ancestor
   being applied last; index expressions and IfExp conditions are never entered (Typing.shield).  [tr_expr E ctx e]
   therefore carries  ctx = Some c  when an ancestor enforced c on the sub-tree e sits in (Typing.enforce), and
   computes the contexts of the children with the same functions tc uses (rule_bin, rule_cmp, rule_if, index_ext).

   Names.  The RTL term knows signals / temporaries / loop variables by number; [names] gives their SystemVerilog
   spelling (interned identifiers, produced by the harness from the pymtl3 objects, NOT from the emitted text):
     signal s            x            or  x[W'dk]...   for a member of a (nested) list of signals
     field path p of s   x.f1.f2...
     temporary i         __tmpvar__<blk>_<name>
     loop variable i     <blk>.<name>                  (svparse renames the counter declared in the for header)
   A python closure / global constant is emitted as  N'( __const__name )  with a localparam declaration; RTL/Syntax.v
   keeps only its value (EFree z / ESized n z), so tr emits the localparam INLINED as the literal of its declaration
   ( w'dz with w = nbits_of z ) and the comparison [sv_stmt_eqb] inlines the scalar localparams of the parsed module the
   same way ([norm], semantics-preserving: TranslateSound.norm_sound).

   What svparse does to the text and tr mirrors: parentheses are dropped (the parse tree has the precedence the TEXT
   has, so a missing pair of brackets shows as a different tree whenever it matters); literal part-select bounds
   [N'dH:M'dL] are folded to integers the way [sv_cfold] does;  x += e  is read as  x = x + e.                       *)
From Coq Require Import FMapPositive.
From PV Require Import Base.Prelude Bits.BitsSpec RTL.Syntax RTL.Eval RTL.Typing.
From PV Require SV.SvSyntax SV.SvSizing SV.SvEval.
Open Scope Z_scope.

Module S := PV.SV.SvSyntax.
Module Z' := PV.SV.SvSizing.
Module X := PV.SV.SvEval.

Notation sexpr := S.expr.
Notation sstmt := S.stmt.
Notation ident := S.ident.

Record names : Type := mknames {
  n_sig  : nat -> ident * list (Z * Z);   (* variable, constant unpacked indices (width, value), outermost first *)
  n_elem : nat -> bool;                   (* the signal is spelled  <list>[k]  in the python source (RTLIR node class Index) *)
  n_fld  : nat -> list nat -> ident;      (* spelling of the LAST field of path p of signal s *)
  n_tmp  : nat -> ident;
  n_loop : nat -> ident }.

(* ------------------------------------------------------------------ operators *)
Definition tr_binop (op : binop) : S.binop :=
  match op with
  | Add => S.BAdd | Sub => S.BSub | Mul => S.BMul | And => S.BAnd | Or => S.BOr | Xor => S.BXor
  | FloorDiv => S.BDiv | Mod => S.BMod | LShift => S.BShl | RShift => S.BShr
  end.
Definition tr_cmpop (op : cmpop) : S.binop :=
  match op with CEq => S.BEq | CNe => S.BNe | CLt => S.BLt | CLe => S.BLe | CGt => S.BGt | CGe => S.BGe end.
Definition tr_redop (op : redop) : S.unop :=
  match op with RAnd => S.URedAnd | ROr => S.URedOr | RXor => S.URedXor end.

(* svparse.cfold: value of a literal part-select bound, evaluated self-determined:
   N'dV and N'(e) reduce modulo 2^N, + - * work at the wider operand width *)
Fixpoint sv_cfold (e : sexpr) : option (Z * Z) :=
  match e with
  | S.ELit w v => Some (w, v mod 2 ^ w)
  | S.ENum v => Some (32, v mod 2 ^ 32)
  | S.ECast w a => match sv_cfold a with Some (_, v) => Some (w, v mod 2 ^ w) | None => None end
  | S.EBin o a b =>
      match o, sv_cfold a, sv_cfold b with
      | S.BAdd, Some (wa, va), Some (wb, vb) => Some (Z.max wa wb, (va + vb) mod 2 ^ Z.max wa wb)
      | S.BSub, Some (wa, va), Some (wb, vb) => Some (Z.max wa wb, (va - vb) mod 2 ^ Z.max wa wb)
      | S.BMul, Some (wa, va), Some (wb, vb) => Some (Z.max wa wb, (va * vb) mod 2 ^ Z.max wa wb)
      | _, _, _ => None
      end
  | _ => None
  end.

(* ------------------------------------------------------------------ signals *)
Fixpoint tr_fields (nm : names) (s : nat) (done rest : list nat) (acc : sexpr) : sexpr :=
  match rest with
  | [] => acc
  | f :: r => tr_fields nm s (done ++ [f]) r (S.EMember acc (n_fld nm s (done ++ [f])))
  end.
Definition tr_root (nm : names) (s : nat) : sexpr :=
  fold_left (fun e wk => S.EIndex e (S.ELit (fst wk) (snd wk))) (snd (n_sig nm s)) (S.EId (fst (n_sig nm s))).
Definition tr_sig (nm : names) (s : nat) (p : list nat) : sexpr := tr_fields nm s [] p (tr_root nm s).

(* ------------------------------------------------------------------ expressions *)
Definition fin (ctx : option Z) (a : ann) : ann := match ctx with Some c => enf_ann c a | None => a end.
(* an outer enforcement overrides the one the parent applies *)
Definition sub (ctx cl : option Z) : option Z := match ctx with Some _ => ctx | None => cl end.

Section Expr.
Variable nm : names.
Variable E : tenv.

Definition ann_of (e : expr) : option ann := match tc impl E e with Some r => Some (fst r) | None => None end.
(* Type.get_dtype().get_length() of the node as the translator sees it *)
Definition fwid (ctx : option Z) (e : expr) : Z :=
  match ann_of e with Some a => aw (fin ctx a) | None => 0 end.
Definition fex (e : expr) : bool := match ann_of e with Some a => aex a | None => true end.
Definition cv_of (e : expr) : option Z := match ann_of e with Some a => acv a | None => None end.

Definition bin_ctx (op : binop) (a b : expr) : option Z * option Z :=
  match ann_of a, ann_of b with
  | Some la, Some ra => match rule_bin impl op la ra with Some (_, cl, cr) => (cl, cr) | None => (None, None) end
  | _, _ => (None, None)
  end.
Definition cmp_ctx (a b : expr) : option Z * option Z :=
  match ann_of a, ann_of b with
  | Some la, Some ra => match rule_cmp la ra with Some (_, cl, cr) => (cl, cr) | None => (None, None) end
  | _, _ => (None, None)
  end.
Definition if_ctx (c a b : expr) : option Z * option Z :=
  match ann_of c, ann_of a, ann_of b with
  | Some rc, Some la, Some ra => match rule_if impl rc la ra with Some (_, cl, cr) => (cl, cr) | None => (None, None) end
  | _, _, _ => (None, None)
  end.
Definition idx_ctx (a i : expr) (inclusive : bool) : option Z :=
  match ann_of a, ann_of i with
  | Some A, Some ri => match index_ext (aw A) ri inclusive with Some c => c | None => None end
  | _, _ => None
  end.

(* visit_Slice on an already translated base [ta] and lower bound [tlo] *)
Definition tr_slice (ta tlo : sexpr) (lo hi : expr) (hictx : option Z) : sexpr :=
  match cv_of lo, cv_of hi with
  | Some _, Some h =>
      (* value[ N'd(h-1) : lower ]   (svparse folds both bounds) *)
      S.ERange ta ((h - 1) mod 2 ^ fwid hictx hi) (match sv_cfold tlo with Some (_, v) => v | None => -1 end)
  | _, _ =>
      match hi with
      | EBin Add _ y => match cv_of y with Some k => S.EPlusRange ta tlo k | None => S.ERange ta (-1) (-1) end
      | _ => S.ERange ta (-1) (-1)
      end
  end.

(* visit_SignExt / visit_Reduce build TEXT:  "{value}[{last_bit}]"  and  "( {op} {value} )"  without brackets around
   value.  What the parser reads: the select binds to the LAST primary of the text of value, the reduction operator to
   the FIRST operand (operands of binary operators that are operator expressions themselves are bracketed by
   visit_expr_wrap, so one step suffices on the left; on the right a bracketed operand followed by [k] is not
   SystemVerilog and svparse refuses the whole text).  For a value that is an identifier / select chain / concatenation
   this is the intended tree. *)
Fixpoint sext_attach (t : sexpr) (k : Z) {struct t} : sexpr :=
  match t with
  | S.EBin o x y => S.EBin o x (sext_attach y k)
  | S.ECond c x y => S.ECond c x (sext_attach y k)
  | S.EUn o x => S.EUn o (sext_attach x k)
  | _ => S.EIndex t (S.ENum k)
  end.
Definition red_attach (o : S.unop) (t : sexpr) : sexpr :=
  match t with
  | S.EBin b x y => S.EBin b (S.EUn o x) y
  | S.ECond c x y => S.ECond (S.EUn o c) x y
  | _ => S.EUn o t
  end.

(* visit_SignExt: which bit is replicated, given the translated operand *)
Definition sext_bit (a : expr) (ta : sexpr) (w : Z) (hiw : Z) : sexpr :=
  match a with
  | ESlice _ lo hi =>
      match cv_of lo, cv_of hi with
      | Some l, Some h =>
          if h - l =? 1 then ta                          (* one-bit part select: replicated as it is *)
          else match ta with
               | S.ERange x _ _ => S.EIndex x (S.ELit hiw ((h - 1) mod 2 ^ hiw))    (* text up to the ':' + ']' *)
               | _ => sext_attach ta (w - 1)
               end
      | _, _ =>
          (* x[base +: k]: the top bit is selected as  x[(base) + k-1]  (the bracket matching the final ']' is found) *)
          match ta with
          | S.EPlusRange x b k => S.EIndex x (S.EBin S.BAdd b (S.ENum (k - 1)))
          | _ => sext_attach ta (w - 1)
          end
      end
  | EIdx _ _ => ta                                       (* isinstance( node.value, bir.Index ): replicated as it is *)
  | ESig s [] => if n_elem nm s then ta else sext_attach ta (w - 1)    (* ... also when it indexes a LIST of signals *)
  | _ => sext_attach ta (w - 1)
  end.

Fixpoint tr_expr (ctx : option Z) (e : expr) {struct e} : sexpr :=
  match e with
  | ESig s p => tr_sig nm s p
  | ELit z => S.ELit (fwid ctx e) z                                                    (* visit_Number *)
  | ESized n z => S.ELit n (z mod 2 ^ n)                                               (* visit_SizeCast, _value *)
  | EFree z => S.ECast (fwid ctx e) (S.ELit (nbits_of z) z)                            (* visit_FreeVar, localparam inlined *)
  | ECast n a =>
      match cv_of a with
      | Some v => S.ELit n (v mod 2 ^ n)
      | None => S.ECast n (tr_expr ctx a)
      end
  | EBin op a b =>
      let c := bin_ctx op a b in
      S.EBin (tr_binop op) (tr_expr (sub ctx (fst c)) a) (tr_expr (sub ctx (snd c)) b)
  | ECmp op a b =>
      let c := cmp_ctx a b in
      S.EBin (tr_cmpop op) (tr_expr (sub ctx (fst c)) a) (tr_expr (sub ctx (snd c)) b)
  | EInv a => S.EUn S.UNot (tr_expr ctx a)
  | ESlice a lo hi =>
      tr_slice (tr_expr ctx a) (tr_expr (sub ctx (idx_ctx a lo true)) lo) lo hi (sub ctx (idx_ctx a hi false))
  | EIdx a i => S.EIndex (tr_expr None a) (tr_expr (idx_ctx a i true) i)
  | EConcat es => S.EConcat ((fix go (l : list expr) : list sexpr := match l with [] => [] | x :: r => tr_expr ctx x :: go r end) es)
  | EZext n a =>
      let ta := tr_expr ctx a in
      let pad := n - fwid ctx a in
      if pad =? 0 then ta else S.EConcat [S.ERepl pad (S.ELit 1 0); ta]
  | ESext n a =>
      let ta := tr_expr ctx a in
      let w := fwid ctx a in
      let pad := n - w in
      if pad =? 0 then ta
      else S.EConcat [S.ERepl pad (sext_bit a ta w
                                     (match a with ESlice b _ hi => fwid (sub ctx (idx_ctx b hi false)) hi | _ => 0 end)); ta]
  | ETrunc n a => if n <? fwid ctx a then S.ECast n (tr_expr ctx a) else tr_expr ctx a
  | ERed op a => red_attach (tr_redop op) (tr_expr ctx a)
  | EIf c a b =>
      let k := if_ctx c a b in
      S.ECond (tr_expr None c) (tr_expr (sub ctx (fst k)) a) (tr_expr (sub ctx (snd k)) b)
  | ETmp i => if fex e then S.EId (n_tmp nm i) else S.ECast (fwid ctx e) (S.EId (n_tmp nm i))
  | ELoop i => S.ECast (fwid ctx e) (S.EId (n_loop nm i))
  end.

(* assignment targets (is_assign_LHS: a temporary is printed bare) *)
Definition tr_lhs (l : lhs) : sexpr :=
  match l with
  | LSig s p => tr_sig nm s p
  | LSlice s p lo hi =>
      let a := ESig s p in
      tr_slice (tr_sig nm s p) (tr_expr (idx_ctx a lo true) lo) lo hi (idx_ctx a hi false)
  | LIndex s p i => S.EIndex (tr_sig nm s p) (tr_expr (idx_ctx (ESig s p) i true) i)
  | LTmp i => S.EId (n_tmp nm i)
  end.

(* the enforcement _visit_Assign_single_target applies to the right-hand side *)
Definition assign_ctx (l : lhs) (e : expr) : option Z :=
  match lhs_expr l with
  | None => None
  | Some le =>
      match ann_of le, ann_of e with
      | Some L, Some R =>
          match astr L, astr R with
          | None, None => if negb (aex R) && negb (aw R =? aw L) then Some (aw L) else None
          | _, _ => None
          end
      | _, _ => None
      end
  end.
End Expr.

(* ------------------------------------------------------------------ where the soundness theorem applies *)
(* Static analyses on the RTL term (no typing judgement is needed for them):
     mayint e   e MAY evaluate to a python int         (every VInt-valued expression satisfies it)
     defint e   e DOES evaluate to a python int        (built from literals, closure ints and loop variables only)
     cval e     the value of a closed integer expression, computed with the simulator's own int arithmetic
     ubound e   an upper bound of the value of an int-valued expression (None: not bounded by this analysis)        *)
Fixpoint mayint (E : tenv) (e : expr) {struct e} : bool :=
  match e with
  | ELit _ | EFree _ | ELoop _ => true
  | EBin _ a b | ECmp _ a b => mayint E a && mayint E b
  | EInv a => mayint E a
  | EIf _ a b => mayint E a || mayint E b
  | ETmp i => match ttmp E i with Some (_, _, mi, _) => mi | None => false end
  | _ => false
  end.
Fixpoint defint (e : expr) {struct e} : bool :=
  match e with
  | ELit _ | EFree _ | ELoop _ => true
  | EBin _ a b | ECmp _ a b => defint a && defint b
  | EIf _ a b => defint a && defint b
  | _ => false
  end.
Fixpoint cval (e : expr) {struct e} : option Z :=
  match e with
  | ELit z | EFree z => Some z
  | EBin op a b =>
      match cval a, cval b with
      | Some x, Some y => match eval_int_bin op x y with Ok (VInt z) => Some z | _ => None end
      | _, _ => None
      end
  | _ => None
  end.
Fixpoint ubound (E : tenv) (e : expr) {struct e} : option Z :=
  match e with
  | ELit z | EFree z => Some z
  | ELoop i => match tloop E i with Some w => Some (2 ^ w - 1) | None => None end
  | ETmp i => match ttmp E i with Some (w, _, _, _) => Some (2 ^ w - 1) | None => None end
  | EBin op a b =>
      match cval e with
      | Some c => Some c
      | None =>
          match ubound E a, ubound E b with
          | Some x, Some y =>
              match op with
              | Add => Some (x + y) | Mul => Some (x * y) | RShift => Some x
              | LShift => if y <=? 64 then Some (x * 2 ^ y) else None
              | _ => None
              end
          | _, _ => None
          end
      end
  | ECmp _ _ _ => Some 1
  | EIf _ a b => match ubound E a, ubound E b with Some x, Some y => Some (Z.max x y) | _, _ => None end
  | _ => None
  end.

Definition is_sub (op : binop) : bool := match op with Sub => true | _ => false end.

Section Ok.
Variable te : Z'.tenv.       (* declarations of the emitted module: self-determined widths are computed in it *)
Variable nm : names.
Variable E : tenv.
Notation W := (Z'.selfw te).
Notation T := (tr_expr nm E).

(* a plain Bits signal / field (the only legal base of a part select or bit select in the emitted text) *)
Definition is_sigbits (e : expr) : bool :=
  match e with
  | ESig s p => match lookup_sig (tsig E) s p with
                | Some f => match fstruct f with None => true | Some _ => false end
                | None => false end
  | _ => false
  end.

(* [sv_ok ctx e]: the acceptor under which TranslateSound.tr_expr_sound holds.  Beyond recursion it demands
   - literals / closure constants / loop variables / implicit temporaries fit the width they are printed at;
   - both operands of + - * & | ^, of a comparison and both branches of ?: have ONE self-determined width in the
     emitted text (what the type checker's enforcement is meant to achieve);
   - an operation between two python ints stays below 2^width of its emitted form (this is where constant
     sub-expressions typed by their folded value but emitted unfolded — finding F4 — are refused); unless its value is a
     closed constant it is built from + * << >> only;
   - ~ and reduce_* are applied to Bits values; the operand of reduce_* / sext is printed as a primary / a plain signal
     (otherwise the text the translator builds groups differently: known findings "precedence");
   - part / bit selects are taken from plain Bits signals with closed constant bounds or the  x : x+k  form over ints;
   - the padding of zext / sext / the decision of trunc use the annotated width of the operand: it must be the
     self-determined width of its emitted form. *)
Fixpoint sv_ok (ctx : option Z) (e : expr) {struct e} : bool :=
  match e with
  | ESig _ _ => true
  | ELit z => let w := fwid E ctx e in (0 <=? z) && (z <? 2 ^ w) && (0 <=? w)
  | ESized _ _ => true
  | EFree z =>
      let w := fwid E ctx e in
      (0 <=? z) && (z <? 2 ^ w) && (z <? 2 ^ nbits_of z) && (0 <=? w) && (0 <=? nbits_of z)
  | ECast _ a => match cv_of E a with None => sv_ok ctx a | Some _ => false end
  | EBin op a b =>
      let c := bin_ctx E op a b in
      let ta := T (sub ctx (fst c)) a in
      let tb := T (sub ctx (snd c)) b in
      sv_ok (sub ctx (fst c)) a && sv_ok (sub ctx (snd c)) b && negb (is_div op) &&
      (is_shift op || (W ta =? W tb)) &&
      (negb (mayint E a && mayint E b) ||
       match cval e with
       | Some c => (0 <=? c) && (c <? 2 ^ W (S.EBin (tr_binop op) ta tb))
       | None => negb (is_sub op) && match ubound E e with Some m => m <? 2 ^ W (S.EBin (tr_binop op) ta tb) | None => false end
       end)
  | ECmp op a b =>
      let c := cmp_ctx E a b in
      sv_ok (sub ctx (fst c)) a && sv_ok (sub ctx (snd c)) b && (W (T (sub ctx (fst c)) a) =? W (T (sub ctx (snd c)) b))
  | EInv a => sv_ok ctx a && negb (mayint E a)
  | ESlice a lo hi =>
      is_sigbits a &&
      match cv_of E lo, cv_of E hi with
      | Some _, Some h0 =>
          match cval lo, cval hi with
          | Some l, Some h =>
              ((match sv_cfold (T (sub ctx (idx_ctx E a lo true)) lo) with Some (_, v) => v | None => -1 end) =? l) &&
              ((h0 - 1) mod 2 ^ fwid E (sub ctx (idx_ctx E a hi false)) hi =? h - 1)
          | _, _ => false
          end
      | _, _ =>
          match hi with
          | EBin Add x y =>
              match cv_of E y, cval y with
              | Some k', Some k =>
                  (k' =? k) && (0 <? k) && expr_eqb lo x && defint lo && sv_ok (sub ctx (idx_ctx E a lo true)) lo
              | _, _ => false
              end
          | _ => false
          end
      end
  | EIdx a i => is_sigbits a && sv_ok (idx_ctx E a i true) i
  | EConcat es => (fix go (l : list expr) : bool := match l with [] => true | x :: r => sv_ok ctx x && go r end) es
  | EZext _ a | ETrunc _ a => sv_ok ctx a && (W (T ctx a) =? fwid E ctx a)
  | ESext _ a =>
      sv_ok ctx a && (W (T ctx a) =? fwid E ctx a) &&
      match a with
      | ESig s p => (fwid E ctx a <? 2 ^ 32) && is_sigbits a && match p with [] => negb (n_elem nm s) | _ => true end
      | ESlice b lo hi =>
          (* a constant part select of a plain signal (accepted above): the checker's constants are the values *)
          match cv_of E lo, cv_of E hi, cval lo, cval hi with
          | Some l0, Some h0, Some l, Some h => (l0 =? l) && (h0 =? h) && (0 <=? fwid E (sub ctx (idx_ctx E b hi false)) hi)
          | _, _, _, _ => false
          end
      | _ => false
      end
  | ERed _ a =>
      sv_ok ctx a && negb (mayint E a) &&
      match T ctx a with S.EBin _ _ _ | S.ECond _ _ _ => false | _ => true end
  | EIf c a b =>
      let k := if_ctx E c a b in
      sv_ok None c && sv_ok (sub ctx (fst k)) a && sv_ok (sub ctx (snd k)) b &&
      (W (T (sub ctx (fst k)) a) =? W (T (sub ctx (snd k)) b))
  | ETmp i =>
      match ttmp E i with
      | Some (w, ex, _, _) => eqb (fex E e) ex && (ex || (w <=? fwid E ctx e))
      | None => false
      end
  | ELoop i => match tloop E i with Some w => w <=? fwid E ctx e | None => false end
  end.
End Ok.

(* ------------------------------------------------------------------ statements *)
Definition env_after (E : tenv) (s : stmt) : tenv := match tcs impl E s with Some (E', _) => E' | None => E end.
Definition env_after_list (E : tenv) (l : list stmt) : tenv := fold_left env_after l E.

Fixpoint tr_stmt (nm : names) (E : tenv) (s : stmt) {struct s} : sstmt :=
  match s with
  | SAssign _ l e blocking =>
      let r := tr_expr nm E (assign_ctx E l e) e in
      if blocking then S.SBlocking (tr_lhs nm E l) r else S.SNonBlocking (tr_lhs nm E l) r
  | SIf _ c t f =>
      S.SIf (tr_expr nm E None c)
        ((fix go (l : list stmt) (E : tenv) : list sstmt :=
            match l with [] => [] | x :: r => tr_stmt nm E x :: go r (env_after E x) end) t E)
        ((fix go (l : list stmt) (E : tenv) : list sstmt :=
            match l with [] => [] | x :: r => tr_stmt nm E x :: go r (env_after E x) end) f (env_after_list E t))
  | SFor id lo hi step body =>
      (* for ( int unsigned v = LO; v < HI; v += STEP )  with the bounds at their own literal widths *)
      S.SFor (n_loop nm id) (S.ELit (nbits_of lo) lo) S.BLt (S.ELit (nbits_of hi) hi) S.BAdd (S.ELit (nbits_of step) step)
        ((fix go (l : list stmt) (E : tenv) : list sstmt :=
            match l with [] => [] | x :: r => tr_stmt nm E x :: go r (env_after E x) end)
           body (set_tloop E id (Some (loopvar_width lo hi step))))
  end.

Fixpoint tr_stmts (nm : names) (E : tenv) (l : list stmt) : list sstmt :=
  match l with [] => [] | x :: r => tr_stmt nm E x :: tr_stmts nm (env_after E x) r end.

(* body of the always block emitted for an update block with declarations G *)
Definition tr_block (nm : names) (G : decls) (b : list stmt) : list sstmt := tr_stmts nm (init_tenv G) b.

(* ------------------------------------------------------------------ acceptor for statements and blocks *)
Section BlkOk.
Variable te : Z'.tenv.
Variable nm : names.

Definition lhs_ok (E : tenv) (l : lhs) : bool :=
  match l with
  | LSig s p => match lookup_sig (tsig E) s p with Some _ => true | None => false end
  | LSlice s p lo hi => sv_ok te nm E None (ESlice (ESig s p) lo hi)
  | LIndex s p i => sv_ok te nm E None (EIdx (ESig s p) i)
  | LTmp _ => true
  end.

(* an assignment: both sides accepted, target exactly as wide as the emitted right-hand side (so that the assignment
   context does not widen the evaluation), <<= only to a whole signal (what RTL/Eval.v models) *)
Definition assign_ok (E : tenv) (l : lhs) (e : expr) (blocking : bool) : bool :=
  lhs_ok E l && sv_ok te nm E (assign_ctx E l e) e &&
  (Z'.selfw te (tr_lhs nm E l) =? Z'.selfw te (tr_expr nm E (assign_ctx E l e) e)) &&
  (blocking || match l with LSig _ [] => true | _ => false end).

(* for ( v = LO; v < HI; v += STEP ): the literals fit their printed widths and the 32-bit counter cannot wrap *)
Definition for_ok (lo hi step : Z) : bool :=
  (0 <=? lo) && (0 <=? hi) && (0 <? step) && (lo <? 2 ^ nbits_of lo) && (hi <? 2 ^ nbits_of hi) &&
  (step <? 2 ^ nbits_of step) && (hi + step <? 2 ^ 32) && (lo <? 2 ^ 32).

Fixpoint stmt_ok (E : tenv) (s : stmt) {struct s} : bool :=
  match s with
  | SAssign _ l e blocking => assign_ok E l e blocking
  | SIf _ c t f =>
      sv_ok te nm E None c &&
      (fix go (l : list stmt) (E : tenv) : bool :=
         match l with [] => true | x :: r => stmt_ok E x && go r (env_after E x) end) t E &&
      (fix go (l : list stmt) (E : tenv) : bool :=
         match l with [] => true | x :: r => stmt_ok E x && go r (env_after E x) end) f (env_after_list E t)
  | SFor id lo hi step body =>
      for_ok lo hi step &&
      (fix go (l : list stmt) (E : tenv) : bool :=
         match l with [] => true | x :: r => stmt_ok E x && go r (env_after E x) end)
        body (set_tloop E id (Some (loopvar_width lo hi step)))
  end.
Fixpoint stmts_ok (E : tenv) (l : list stmt) : bool :=
  match l with [] => true | x :: r => stmt_ok E x && stmts_ok (env_after E x) r end.
(* the acceptor evaluated on every compared block: every expression of the block is in the domain of
   TranslateSound.tr_expr_sound and every assignment in that of TranslateSound.tr_assign_* *)
Definition blk_ok (G : decls) (b : list stmt) : bool := stmts_ok (init_tenv G) b.
End BlkOk.

(* ------------------------------------------------------------------ comparison with the parsed emitted text *)
(* scalar localparams of the module: identifier -> (declared width, value) *)
Definition params := PositiveMap.t (Z * Z).

(* [norm ps false e]: every READ of a scalar localparam is replaced by the literal of its declaration, and a size cast
   of a literal that fits its own width is folded into the literal ( N'( M'dV ) = N'dV  when V < 2^M ).  The base of a
   select chain ( x in x[i], x.f, x[h:l] ) is left alone ([base] = true) *)
Fixpoint norm (ps : params) (base : bool) (e : sexpr) {struct e} : sexpr :=
  match e with
  | S.ELit _ _ | S.ENum _ => e
  | S.EId x => if base then e else match PositiveMap.find x ps with Some (w, v) => S.ELit w v | None => e end
  | S.EMember a f => S.EMember (norm ps true a) f
  | S.EIndex a i => S.EIndex (norm ps true a) (norm ps false i)
  | S.ERange a hi lo => S.ERange (norm ps true a) hi lo
  | S.EPlusRange a b w => S.EPlusRange (norm ps true a) (norm ps false b) w
  | S.EConcat es => S.EConcat ((fix go (l : list sexpr) : list sexpr := match l with [] => [] | x :: r => norm ps false x :: go r end) es)
  | S.ERepl n a => S.ERepl n (norm ps false a)
  | S.EUn o a => S.EUn o (norm ps false a)
  | S.EBin o a b => S.EBin o (norm ps false a) (norm ps false b)
  | S.ECond c a b => S.ECond (norm ps false c) (norm ps false a) (norm ps false b)
  | S.ECast w a =>
      match norm ps false a with
      | S.ELit w' v => if (0 <=? v) && (v <? 2 ^ w') then S.ELit w v else S.ECast w (S.ELit w' v)
      | a' => S.ECast w a'
      end
  end.

Definition unop_eqb (a b : S.unop) : bool :=
  match a, b with
  | S.UNot, S.UNot | S.UNeg, S.UNeg | S.UPlus, S.UPlus | S.URedAnd, S.URedAnd | S.URedOr, S.URedOr
  | S.URedXor, S.URedXor | S.ULogNot, S.ULogNot => true
  | _, _ => false
  end.
Definition binop_eqb (a b : S.binop) : bool :=
  match a, b with
  | S.BAdd, S.BAdd | S.BSub, S.BSub | S.BMul, S.BMul | S.BDiv, S.BDiv | S.BMod, S.BMod | S.BAnd, S.BAnd | S.BOr, S.BOr
  | S.BXor, S.BXor | S.BShl, S.BShl | S.BShr, S.BShr | S.BEq, S.BEq | S.BNe, S.BNe | S.BLt, S.BLt | S.BLe, S.BLe
  | S.BGt, S.BGt | S.BGe, S.BGe | S.BLAnd, S.BLAnd | S.BLOr, S.BLOr => true
  | _, _ => false
  end.

(* strict structural equality of SystemVerilog expressions / statements *)
Fixpoint sexpr_eqb (x y : sexpr) {struct x} : bool :=
  match x, y with
  | S.ELit w v, S.ELit w' v' => (w =? w') && (v =? v')
  | S.ENum v, S.ENum v' => v =? v'
  | S.EId a, S.EId b => Pos.eqb a b
  | S.EMember a f, S.EMember a' f' => sexpr_eqb a a' && Pos.eqb f f'
  | S.EIndex a i, S.EIndex a' i' => sexpr_eqb a a' && sexpr_eqb i i'
  | S.ERange a h l, S.ERange a' h' l' => sexpr_eqb a a' && (h =? h') && (l =? l')
  | S.EPlusRange a b w, S.EPlusRange a' b' w' => sexpr_eqb a a' && sexpr_eqb b b' && (w =? w')
  | S.EConcat es, S.EConcat es' =>
      (fix go (l l' : list sexpr) : bool :=
         match l, l' with [], [] => true | p :: r, q :: r' => sexpr_eqb p q && go r r' | _, _ => false end) es es'
  | S.ERepl n a, S.ERepl n' a' => (n =? n') && sexpr_eqb a a'
  | S.EUn o a, S.EUn o' a' => unop_eqb o o' && sexpr_eqb a a'
  | S.EBin o a b, S.EBin o' a' b' => binop_eqb o o' && sexpr_eqb a a' && sexpr_eqb b b'
  | S.ECond c a b, S.ECond c' a' b' => sexpr_eqb c c' && sexpr_eqb a a' && sexpr_eqb b b'
  | S.ECast w a, S.ECast w' a' => (w =? w') && sexpr_eqb a a'
  | _, _ => false
  end.

(* the comparison used by the tie: equal after inlining localparams (lvalues are bases: nothing is inlined in them
   except inside their index expressions) *)
Definition sv_expr_eqb (ps : params) (x y : sexpr) : bool := sexpr_eqb (norm ps false x) (norm ps false y).
Definition sv_lhs_eqb (ps : params) (x y : sexpr) : bool := sexpr_eqb (norm ps true x) (norm ps true y).

Fixpoint sv_stmt_eqb (ps : params) (x y : sstmt) {struct x} : bool :=
  match x, y with
  | S.SBlocking l r, S.SBlocking l' r' | S.SNonBlocking l r, S.SNonBlocking l' r' => sv_lhs_eqb ps l l' && sv_expr_eqb ps r r'
  | S.SIf c t f, S.SIf c' t' f' =>
      sv_expr_eqb ps c c' &&
      (fix go (l l' : list sstmt) : bool :=
         match l, l' with [], [] => true | p :: r, q :: r' => sv_stmt_eqb ps p q && go r r' | _, _ => false end) t t' &&
      (fix go (l l' : list sstmt) : bool :=
         match l, l' with [], [] => true | p :: r, q :: r' => sv_stmt_eqb ps p q && go r r' | _, _ => false end) f f'
  | S.SFor v i c b n s body, S.SFor v' i' c' b' n' s' body' =>
      Pos.eqb v v' && sv_expr_eqb ps i i' && binop_eqb c c' && sv_expr_eqb ps b b' && binop_eqb n n' && sv_expr_eqb ps s s' &&
      (fix go (l l' : list sstmt) : bool :=
         match l, l' with [], [] => true | p :: r, q :: r' => sv_stmt_eqb ps p q && go r r' | _, _ => false end) body body'
  | _, _ => false
  end.
Fixpoint sv_block_eqb (ps : params) (l l' : list sstmt) : bool :=
  match l, l' with [], [] => true | p :: r, q :: r' => sv_stmt_eqb ps p q && sv_block_eqb ps r r' | _, _ => false end.

(* scalar localparams (of a parsed module) whose initialiser is a plain sized literal of the declared width that fits *)
Definition params_of (l : list (S.vdecl * S.init)) : params :=
  fold_left (fun ps di =>
               match di with
               | (S.mkdecl x (S.PBits w) [], S.IExpr (S.ELit w' v)) =>
                   if (w =? w') && (0 <=? v) && (v <? 2 ^ w) then PositiveMap.add x (w, v) ps else ps
               | _ => ps
               end) l (PositiveMap.empty (Z * Z)).

(* ------------------------------------------------------------------ names from association lists (harness) *)
Fixpoint assoc_nat {A} (l : list (nat * A)) (k : nat) (d : A) : A :=
  match l with [] => d | (j, a) :: r => if Nat.eqb j k then a else assoc_nat r k d end.
Fixpoint assoc_fld (l : list (nat * list nat * ident)) (s : nat) (p : list nat) (d : ident) : ident :=
  match l with [] => d | (s', p', x) :: r => if Nat.eqb s s' && path_eqb p p' then x else assoc_fld r s p d end.
(* [dflt] is an identifier that occurs nowhere in the emitted text *)
Definition names_of (dflt : ident) (sg : list (nat * (ident * list (Z * Z)))) (el : list nat) (fl : list (nat * list nat * ident))
                    (tm lp : list (nat * ident)) : names :=
  {| n_sig := fun s => assoc_nat sg s (dflt, []);
     n_elem := fun s => existsb (Nat.eqb s) el;
     n_fld := fun s p => assoc_fld fl s p dflt;
     n_tmp := fun i => assoc_nat tm i dflt;
     n_loop := fun i => assoc_nat lp i dflt |}.

(* ------------------------------------------------------------------ running an emitted block (harness + partial statement) *)
(* run the block body p once in SvEval inside the declarations of module m, starting from the packed signal values
   [inputs] (signal s is written through its emitted spelling), commit the non-blocking writes, read all signals back *)
Definition sv_run (m : S.module) (nm : names) (nsig : nat) (p : list sstmt) (inputs : list Z) : list Z * bool :=
  match X.init_state 1 (S.mkfile [] [m]) m with
  | X.MS te en _ =>
      let en1 := fold_left (fun en s => Z'.write_ref (Z'.resolve te en (tr_sig nm s [])) (Z'.VZ (nth s inputs 0)) en) (seq 0 nsig) en in
      let x := X.exec_list te p (X.mkx en1 [] true) in
      let en2 := X.commit (X.x_pend x) (X.x_env x) in
      (map (fun s => Z'.read_bits en2 (Z'.resolve te en2 (tr_sig nm s []))) (seq 0 nsig), X.x_ok x)
  end.
(* 0: the simulator raises on this input (nothing to compare); 1: the emitted block p and the source block t leave the
   same packed value in every signal of wr; 2: they differ *)
Definition blk_diff (nm : names) (G : decls) (t : list stmt) (p : list sstmt) (m : S.module) (nsig : nat) (wr : list nat)
                    (inputs : list Z) : nat :=
  match run_block G nsig t inputs with
  | Ok (o, _) =>
      let r := sv_run m nm nsig p inputs in
      if snd r && forallb (fun s => nth s o 0 =? nth s (fst r) (-1)) wr then 1%nat else 2%nat
  | Err _ => 0%nat
  end.

(* plain designs: every signal a scalar variable of the module (no struct field, no list element), declared with its
   width, all spellings pairwise distinct *)
Fixpoint nodup_pos (l : list ident) : bool :=
  match l with [] => true | x :: r => negb (existsb (Pos.eqb x) r) && nodup_pos r end.
Definition flat_names_ok (m : S.module) (nm : names) (G : decls) (nsig ntmp nloop : nat) : bool :=
  forallb (fun d => match d with (s, p, f) => match p with [] => (flo f =? 0) && (Nat.ltb s nsig) | _ => false end end) G &&
  forallb (fun s => match snd (n_sig nm s), lookup_sig G s [], PositiveMap.find (fst (n_sig nm s)) (X.mod_tenv m) with
                    | [], Some f, Some (S.PBits w, []) => w =? fw f
                    | _, _, _ => false end) (seq 0 nsig) &&
  forallb (fun i => match PositiveMap.find (n_tmp nm i) (X.mod_tenv m) with Some (S.PBits _, []) => true | _ => false end) (seq 0 ntmp) &&
  forallb (fun i => match PositiveMap.find (n_loop nm i) (X.mod_tenv m) with Some (S.PBits 32, []) => true | _ => false end) (seq 0 nloop) &&
  nodup_pos (map (fun s => fst (n_sig nm s)) (seq 0 nsig) ++ map (n_tmp nm) (seq 0 ntmp) ++ map (n_loop nm) (seq 0 nloop)).

(* ------------------------------------------------------------------ acceptor of TranslateSound.tr_block_preserves_inv
   plain designs: every signal is ONE scalar variable of the module (a Bits vector or a packed struct; no list of
   signals), every field (s, p) of it is the member chain below that variable at the offset of the declaration table,
   temporaries are declared scalars, all spellings are pairwise distinct. *)
Definition sid (nm : names) (s : nat) : ident := fst (n_sig nm s).
Definition tmp_decl (te : Z'.tenv) (nm : names) (i : nat) : option Z :=
  match PositiveMap.find (n_tmp nm i) te with Some (S.PBits w, []) => Some w | _ => None end.

Definition place_ok (te : Z'.tenv) (nm : names) (G : decls) (d : nat * list nat * finfo) : bool :=
  let '(s, p, f) := d in
  match snd (n_sig nm s), Z'.resolve te (PositiveMap.empty Z'.value) (tr_sig nm s p), lookup_sig G s [] with
  | [], Some (Z'.mkref x [] [] o ty), Some f0 =>
      Pos.eqb x (sid nm s) && (o =? flo f) && (S.pwidth ty =? fw f) && (0 <? fw f) && (fw f <? 1024) && (0 <=? flo f) &&
      (flo f0 =? 0) && (flo f + fw f <=? fw f0) &&
      match fstruct f with None => match ty with S.PBits w => w =? fw f | _ => false end | Some _ => true end
  | _, _, _ => false
  end.
Definition roots (G : decls) : list nat :=
  map (fun d => fst (fst d)) (filter (fun d => match snd (fst d) with [] => true | _ => false end) G).
Definition plain_ok (te : Z'.tenv) (nm : names) (G : decls) (ntmp : nat) : bool :=
  forallb (place_ok te nm G) G &&
  nodup_pos (map (sid nm) (roots G)) && nodup_pos (map (n_tmp nm) (seq 0 ntmp)) &&
  forallb (fun s => forallb (fun i => negb (Pos.eqb (sid nm s) (n_tmp nm i))) (seq 0 ntmp)) (roots G) &&
  forallb (fun i => match tmp_decl te nm i with Some w => (0 <? w) && (w <? 1024) | None => false end) (seq 0 ntmp).

(* which assignments a block of the given kind may contain: an always_comb block (ff = false) blocking ones only; an
   always_ff block (ff = true) non-blocking assignments to whole signals (what RTL/Eval.v models) and blocking
   assignments to temporaries *)
Definition assign_mode_ok (ff : bool) (l : lhs) (b : bool) : bool :=
  if ff then match l with LTmp _ => b | LSig _ [] => negb b | _ => false end else b.

Section CombOk.
Variable te : Z'.tenv.
Variable nm : names.
Variable ntmp : nat.
Variable ff : bool.

(* tmp = e : the declared width is the annotated one; the kind of value is statically known (a Bits value in an explicit
   temporary, an int built from literals / closure ints / loop variables in an int-typed one); a re-assignment keeps
   width and flags (the type checker's check S7, here required of the block) *)
Definition tmp_assign_ok (E : tenv) (i : nat) (e : expr) : bool :=
  Nat.ltb i ntmp &&
  match tc impl E e, tmp_decl te nm i with
  | Some r, Some w =>
      (aw (fst r) =? w) && ((aex (fst r) && negb (mayint E e)) || (defint e && aint (fst r))) &&
      match ttmp E i with
      | Some (w0, ex0, mi0, _) => (w0 =? aw (fst r)) && eqb ex0 (aex (fst r)) && eqb mi0 (aint (fst r))
      | None => true
      end
  | _, _ => false
  end.
Definition typed (E : tenv) (s : stmt) : bool := match tcs impl E s with Some _ => true | None => false end.

(* statements covered by the block theorems: assignments of the block's kind, if / elif / else; the block
   type-checks; no for loop (stays under TranslateSound.tr_block_sound_partial) *)
Fixpoint cstmt_ok (E : tenv) (s : stmt) {struct s} : bool :=
  match s with
  | SAssign _ l e b =>
      assign_mode_ok ff l b && assign_ok te nm E l e b && typed E s && match l with LTmp i => tmp_assign_ok E i e | _ => true end
  | SIf _ c t f =>
      sv_ok te nm E None c && typed E s &&
      (fix go (l : list stmt) (E : tenv) : bool :=
         match l with [] => true | x :: r => cstmt_ok E x && go r (env_after E x) end) t E &&
      (fix go (l : list stmt) (E : tenv) : bool :=
         match l with [] => true | x :: r => cstmt_ok E x && go r (env_after E x) end) f (env_after_list E t)
  | SFor _ _ _ _ _ => false
  end.
Fixpoint cstmts_ok (E : tenv) (l : list stmt) : bool :=
  match l with [] => true | x :: r => cstmt_ok E x && cstmts_ok (env_after E x) r end.
End CombOk.
Definition comb_ok (te : Z'.tenv) (nm : names) (ntmp : nat) (G : decls) (b : list stmt) : bool :=
  cstmts_ok te nm ntmp false (init_tenv G) b.
Definition ff_ok (te : Z'.tenv) (nm : names) (ntmp : nat) (G : decls) (b : list stmt) : bool :=
  cstmts_ok te nm ntmp true (init_tenv G) b.
