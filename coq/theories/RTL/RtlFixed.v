(* RTL/RtlFixed.v — the fixed-point half of C01 for designs whose blocks are all in the RTL language, with NO `sdep`
   hypothesis: Sched/CondFixed.v instantiated with the block semantics rtl_run of RTL/FootprintSound.v; its conditional
   strong dependence comes from the must-write / exposed-read analysis of RTL/Footprint.v (flow_s), proved sound in
   RTL/FlowSound.v.  No axioms. *)
From Coq Require Import Permutation.
From PV Require Import Base.Prelude RTL.Syntax RTL.Eval.
From PV Require Import Sched.Block Sched.Accept Sched.CondFixed.
From PV Require Import RTL.Footprint RTL.FootprintSound RTL.FlowSound RTL.Design.
Open Scope Z_scope.

Section RtlFixed.
  Variable G : decls.
  Hypothesis Wb : wf_declsb G = true.

  (* block b completes on the environment e *)
  Definition rtl_ok (b : list stmt) (e : env bit bool) : Prop := exists st', exec_block G b (state_of G e) = Ok st'.
  (* the write footprint of b cut to the declared bits of each signal: rtl_run rewrites only in_sig bits, and that
     block_wr lies inside in_sig is not proved anywhere *)
  Definition rtl_aw (b : list stmt) (v : bit) : bool := block_wr G b v && in_sig G v.

  Lemma rtl_frame_aw b e v : rtl_aw b v = false -> rtl_run G b e v = e v.
  Proof.
    unfold rtl_aw. intros A. destruct (block_wr G b v) eqn:Wv.
    - cbn [andb] in A. unfold rtl_run. rewrite A. destruct (exec_block G b (state_of G e)); reflexivity.
    - exact (rtl_frame G Wb b e v Wv).
  Qed.

  Lemma state_of_sdep b (rdD : fp) e1 e2 : xcovers rdD (xreads_d G b) = true ->
    (forall v, mem_fp rdD v = true -> e1 v = e2 v) ->
    out_rel2 (mem_fp rdD) (must_d G b) (exec_block G b (state_of G e1)) (exec_block G b (state_of G e2)).
  Proof.
    intros X Hag. apply (exec_sdep G b (mem_fp rdD) _ _ Wb (state_of_ok G e1) (xcovers_sound _ _ X)).
    apply rel2_nil. exact (state_of_rel G _ e1 e2 Hag).
  Qed.

  Lemma rtl_ok_ext b (rdD : fp) : xcovers rdD (xreads_d G b) = true ->
    forall e1 e2, (forall v, mem_fp rdD v = true -> e1 v = e2 v) -> rtl_ok b e1 -> rtl_ok b e2.
  Proof.
    intros X e1 e2 Hag [a Ha]. pose proof (state_of_sdep b rdD e1 e2 X Hag) as O. rewrite Ha in O.
    unfold rtl_ok. destruct (exec_block G b (state_of G e2)) as [c|y]; [eauto|destruct O].
  Qed.

  Lemma rtl_sdep_on b (rdD : fp) : xcovers rdD (xreads_d G b) = true -> no_latch G b = true -> assigns_ok true b = true ->
    forall e1 e2, rtl_ok b e1 -> rtl_ok b e2 -> (forall v, mem_fp rdD v = true -> e1 v = e2 v) ->
    forall v, rtl_aw b v = true -> rtl_run G b e1 v = rtl_run G b e2 v.
  Proof.
    intros X NL AO e1 e2 [a Ha] [c Hc] Hag [s j] Av.
    unfold rtl_aw in Av. apply andb_prop in Av. destruct Av as [Wv Iv].
    pose proof (state_of_sdep b rdD e1 e2 X Hag) as O. rewrite Ha, Hc in O. destruct O as (A & _ & _).
    pose proof (wf_declsb_sound G Wb) as W.
    pose proof (exec_block_no_pending G b _ a W (state_of_ok G e1) AO Ha (fun _ => eq_refl)) as Na.
    pose proof (exec_block_no_pending G b _ c W (state_of_ok G e2) AO Hc (fun _ => eq_refl)) as Nc.
    unfold rtl_run. rewrite Ha, Hc, Iv. cbn [fst snd]. unfold final_sig. rewrite Na, Nc.
    apply A. unfold un. unfold no_latch in NL. rewrite (covers_sound _ _ NL _ Wv). apply orb_true_r.
  Qed.
End RtlFixed.

(* The certificate of a design d (declared footprints) with translated bodies progs: the declared footprints cover the
   proved ones, every block assigns signals with @= only, has no latch (everything it may write it definitely writes),
   and its exposed reads are declared reads. *)
Definition rtl_fixed_ok (G : decls) (progs : nat -> list stmt) (d : design) : bool :=
  rtl_cover_ok G progs d &&
  forallb (fun i => assigns_ok true (progs i) && no_latch G (progs i) && xcovers (rds d i) (xreads_d G (progs i))) (ids d).

Definition rtl_R (G : decls) (progs : nat -> list stmt) (i : nat) : env bit bool -> env bit bool := rtl_run G (progs i).
(* no block raises while the pass o runs on e *)
Definition rtl_no_raise (G : decls) (progs : nat -> list stmt) (d : design) (o : list nat) (e : env bit bool) : Prop :=
  no_raise (Bd d (rtl_R G progs)) (fun i => rtl_ok G (progs i)) o e.

Lemma rtl_fixed_ok_In G progs d i : rtl_fixed_ok G progs d = true -> In i (ids d) ->
  covers (rds d i) (reads_d G (progs i)) = true /\ covers (wrs d i) (writes_d G (progs i)) = true /\
  assigns_ok true (progs i) = true /\ no_latch G (progs i) = true /\ xcovers (rds d i) (xreads_d G (progs i)) = true.
Proof.
  unfold rtl_fixed_ok, rtl_cover_ok. rewrite andb_true_iff, !forallb_forall. intros [Cv Cf] Hi.
  specialize (Cv i Hi). specialize (Cf i Hi). rewrite andb_true_iff in Cv. rewrite !andb_true_iff in Cf. tauto.
Qed.

(* For every accepted schedule o and every environment e on which no block raises along the pass: afterwards every block
   is at its fixed point, running the whole pass again changes no bit, and every other accepted schedule computes the
   same environment.  A raising block stops the simulation; nothing is claimed for such passes. *)
Theorem rtl_accepted_schedule_fixed_point (G : decls) (progs : nat -> list stmt) (d : design) :
  wf_declsb G = true -> wf_design d = true -> sw_ok d = true -> nsl_ok d = true -> noinv_ok d = true ->
  rtl_fixed_ok G progs d = true ->
  forall o, sched_ok d o = true -> forall e, rtl_no_raise G progs d o e ->
    (forall i, In i (ids d) -> fixed_under (Bd d (rtl_R G progs)) i (run_list (Bd d (rtl_R G progs)) o e)) /\
    eqe (run_list (Bd d (rtl_R G progs)) o (run_list (Bd d (rtl_R G progs)) o e)) (run_list (Bd d (rtl_R G progs)) o e) /\
    (forall o2, sched_ok d o2 = true -> eqe (run_list (Bd d (rtl_R G progs)) o2 e) (run_list (Bd d (rtl_R G progs)) o e)).
Proof.
  intros Wb Wd Sw Nsl Noinv Cert o Ho e Hnr.
  pose proof (fun i => rtl_fixed_ok_In G progs d i Cert) as C.
  set (Bs := Bd d (rtl_R G progs)). set (aw := fun i => rtl_aw G (progs i)).
  assert (Haw : forall i v, In i (ids d) -> aw i v = true -> wr (Bs i) v = true).
  { intros i v Hi A. apply andb_prop in A. destruct (C i Hi) as (_ & Cw & _). exact (covers_sound _ _ Cw v (proj1 A)). }
  assert (Hfr : forall i, In i (ids d) -> forall e0 v, aw i v = false -> run (Bs i) e0 v = e0 v).
  { intros i _ e0 v A. exact (rtl_frame_aw G Wb (progs i) e0 v A). }
  assert (Hdep : forall i, In i (ids d) -> dep (Bs i)).
  { intros i Hi. destruct (C i Hi) as (Cr & Cw & _). exact (proj2 (rtl_blk_footprints G (progs i) _ _ Wb Cr Cw)). }
  pose proof (proj1 (sched_ok_spec d o) Ho) as (_ & Hnd & Hp & Hl).
  assert (Hin : incl o (ids d)) by (intros x Hx; apply (Permutation_in x Hp Hx)).
  assert (FP : forall i, In i o -> fixed_under Bs i (run_list Bs o e)).
  { apply (cond_fixed_point Bs (ids d) (fun i => rtl_ok G (progs i)) aw Haw Hfr) with (E := Eb d).
    - exact (sw_sound d (rtl_R G progs) Wd Sw).
    - intros i Hi e1 e2 O1 O2 Hag v A. destruct (C i Hi) as (_ & _ & AO & NL & X).
      exact (rtl_sdep_on G Wb (progs i) (rds d i) X NL AO e1 e2 O1 O2 Hag v A).
    - intros i Hi e1 e2 Hag O1. destruct (C i Hi) as (_ & _ & _ & _ & X).
      exact (rtl_ok_ext G Wb (progs i) (rds d i) X e1 e2 Hag O1).
    - exact (nsl_sound d (rtl_R G progs) Wd Nsl).
    - exact (noinv_sound d (rtl_R G progs) Wd Noinv).
    - exact Hnd.
    - exact Hin.
    - exact Hl.
    - exact Hnr. }
  split; [intros i Hi; apply FP; apply (Permutation_in i (Permutation_sym Hp) Hi)|]. split.
  - exact (fixed_list Bs (ids d) aw Haw Hfr Hdep o Hin (run_list Bs o e) FP).
  - intros o2 Ho2. apply andb_prop in Cert. exact (rtl_accepted_schedules_agree G progs d Wb Wd Sw (proj1 Cert) o2 o Ho2 Ho e).
Qed.

(* computable forms of "block b completes on e" and "no block raises while the pass o runs on e" (for examples and tests) *)
Definition rtl_okb (G : decls) (b : list stmt) (e : env bit bool) : bool :=
  match exec_block G b (state_of G e) with Ok _ => true | Err _ => false end.
Lemma rtl_okb_sound G b e : rtl_okb G b e = true -> rtl_ok G b e.
Proof. unfold rtl_okb, rtl_ok. destruct (exec_block G b (state_of G e)) as [st'|x]; [eauto|discriminate]. Qed.

Fixpoint rtl_no_raiseb (G : decls) (progs : nat -> list stmt) (d : design) (o : list nat) (e : env bit bool) : bool :=
  match o with
  | [] => true
  | i :: r => rtl_okb G (progs i) e && rtl_no_raiseb G progs d r (run (Bd d (rtl_R G progs) i) e)
  end.
Lemma rtl_no_raiseb_sound G progs d o : forall e, rtl_no_raiseb G progs d o e = true -> rtl_no_raise G progs d o e.
Proof.
  induction o as [|i r IH]; intros e H s1 j s2 E; [destruct s1; discriminate|].
  cbn [rtl_no_raiseb] in H. apply andb_prop in H. destruct H as [H1 H2].
  destruct s1 as [|a s1]; injection E as <- E.
  - subst r. apply rtl_okb_sound. exact H1.
  - exact (IH _ H2 s1 j s2 E).
Qed.
