(* RTL/EvalLemmas.v — what an assignment of RTL/Eval.v does, as far as no typing judgement is needed to say it: what
   becomes of the temporaries and loop variables (signals are not spoken of), and where its width errors come from.
   RTL.Typing is imported for [lhs_expr] only, the target read as an expression. *)
From PV Require Import Base.Prelude Bits.BitsSpec RTL.Syntax RTL.Eval RTL.Typing.
Open Scope Z_scope.

Lemma setitem_of_getitem n u nx i old w : spec_getitem n u i = Ok old ->
  exists r, spec_setitem n u nx i (OBits (fst old) w) = Ok r.
Proof.
  destruct i as [s e st|k]; cbn [spec_getitem spec_setitem].
  - destruct (negb (step_trivial st)); [discriminate|]. cbn zeta.
    destruct (valid_range n (bound s 0) (bound e n)); [|discriminate]. intros [= <-].
    cbn [fst spec_store]. rewrite Z.eqb_refl. cbn. eauto.
  - destruct ((0 <=? k) && (k <? n)); [|discriminate]. intros [= <-]. cbn. eauto.
Qed.
Lemma getitem_int_width n u k old : spec_getitem n u (IInt k) = Ok old -> fst old = 1.
Proof. cbn [spec_getitem]. destruct ((0 <=? k) && (k <? n)); [|discriminate]. intros [= <-]. reflexivity. Qed.

(* What an assignment does.  If it succeeds, it changes no loop variable and no temporary except the one it assigns,
   which takes the value of the right-hand side.  It raises a width error only where evaluating its right-hand side
   does, or evaluating its target as an expression does ([lhs_expr]: a slice or bit is read before it is written), or
   where the Bits object read from the target refuses the value; writing back the part that was read never fails. *)
Lemma exec_assign_cases G st lbl l e b :
  match exec_assign G st lbl l e b with
  | Ok st' =>
      loopv st' = loopv st /\
      match l with
      | LTmp i => exists v, eval G st e = Ok v /\ tmpv st' = upd (tmpv st) i (Some v)
      | _ => tmpv st' = tmpv st
      end
  | Err EValue =>
      match lhs_expr l with
      | None => eval G st e = Err EValue
      | Some le => eval G st e = Err EValue \/ eval G st le = Err EValue \/
                   exists w u v, eval G st le = Ok (VBits w u) /\ eval G st e = Ok v /\ spec_store w (to_operand v) = Err EValue
      end
  | Err _ => True
  end.
Proof.
  unfold exec_assign.
  (* evaluating the right-hand side only records probes *)
  assert (Rhs : match bind (eval G st e) (fun v => Ok (v, add_evs st (map (fun p => (lbl, fst p, snd p)) (probes G st 0 e)))) with
                | Ok vs => eval G st e = Ok (fst vs) /\ loopv (snd vs) = loopv st /\ tmpv (snd vs) = tmpv st
                | Err er => eval G st e = Err er end)
    by (destruct (eval G st e); cbn; auto).
  destruct l as [s p|s p lo hi|s p ix|i]; cbn [lhs_expr eval].
  4: { destruct (bind (eval G st e) _) as [vs|er]; cbn [bind]; [|destruct er; auto].
       destruct Rhs as (Ev & Rl & Rt). cbn. rewrite Rl, Rt. eauto. }
  all: destruct (lookup_sig G s p) as [f|]; [|exact I]; cbn [bind].
  - destruct (bind (eval G st e) _) as [vs|er]; cbn [bind]; [|destruct er; auto]. destruct Rhs as (Ev & Rl & Rt).
    destruct (negb b && _); [exact I|].
    destruct (spec_store (fw f) (to_operand (fst vs))) as [u|er] eqn:S; cbn [bind].
    + destruct b; cbn; rewrite Rl, Rt; auto.
    + destruct er; auto. right; right. unfold read_field. eauto 7.
  - destruct (negb b); [exact I|].
    destruct (eval G st lo) as [vl|er]; cbn [bind]; [|destruct er; auto].
    destruct (eval G st hi) as [vh|er]; cbn [bind]; [|destruct er; auto].
    cbn zeta. unfold read_field. cbn [eval_slice value_int].
    destruct (spec_getitem _ _ _) as [old|er] eqn:Gi; cbn [bind vbits]; [|destruct er; auto].
    destruct (bind (eval G st e) _) as [vs|er]; cbn [bind]; [|destruct er; auto]. destruct Rhs as (Ev & Rl & Rt).
    destruct (spec_store (fst old) (to_operand (fst vs))) as [u|er] eqn:S; cbn [bind]; [|destruct er; eauto 8].
    destruct (setitem_of_getitem _ _ 0 _ _ u Gi) as [r ->]. cbn. rewrite Rl, Rt. auto.
  - destruct (negb b); [exact I|].
    destruct (eval G st ix) as [vi|er]; cbn [bind]; [|destruct er; auto].
    cbn zeta. unfold read_field. cbn [eval_index value_int].
    destruct (spec_getitem _ _ _) as [old|er] eqn:Gi; cbn [bind vbits]; [|destruct er; auto].
    pose proof (getitem_int_width _ _ _ _ Gi) as Hold.
    destruct (bind (eval G st e) _) as [vs|er]; cbn [bind]; [|destruct er; auto]. destruct Rhs as (Ev & Rl & Rt).
    destruct (spec_store 1 (to_operand (fst vs))) as [u|er] eqn:S; cbn [bind]; [|destruct er; auto; rewrite <- Hold in S; eauto 8].
    destruct (setitem_of_getitem _ _ 0 _ _ u Gi) as [r Hr]. rewrite Hold in Hr. rewrite Hr. cbn. rewrite Rl, Rt. auto.
Qed.
