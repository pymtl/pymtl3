(* RTL/DesignProofs.v — the result of the design evaluator RTL/Design.v is a function of the inputs and registers only:

     comb_pass_det       (pass)   det_pass G bs Q = Some Q' : environments agreeing on Q give the same outcome and
                                  agree on Q' afterwards — whatever the other signals (stale wires) held
     sim_tick_obs_det    (tick)   det_tick D Q = Some (Q1, Q2) : the same for what is observed after
                                  sim_eval_combinational (Q1) and after sim_tick (Q2)
   Each block contributes through FlowSound.exec_sdep (combinational) or FlowSound.two_block (update_ff).
   Beside them, the frame side: a bit no block may write keeps its value through a pass (comb_pass_frame), the edge
   (ff_pass_frame) and a whole tick (sim_tick_obs_frame).
   After them, as the exhaustive sweeps of Lib use them: environments built by set_nth, empty net blocks (strip), and a tick
   assembled from one pass and the edge (tick_from_halves).  No axioms. *)
From PV Require Import Base.Prelude RTL.Syntax RTL.Eval Sched.Accept RTL.Footprint RTL.FootprintSound RTL.FlowSound RTL.Design.
Open Scope Z_scope.

Lemma exposed_xsub X : xsub X (exposed X).
Proof.
  intros F Dx v Hin Hf Hd. unfold exposed. apply existsb_exists. exists (F, Dx). split; [exact Hin|].
  cbn [fst snd]. rewrite Hf, Hd. reflexivity.
Qed.

Definition eagree (Q : bit -> bool) (e1 e2 : senv) : Prop :=
  length e1 = length e2 /\ forall s j, Q (s, j) = true -> Z.testbit (nth s e1 0) j = Z.testbit (nth s e2 0) j.
Definition oagree (Q : bit -> bool) (l1 l2 : list (option Z)) : Prop :=
  length l1 = length l2 /\
  forall s, match nth s l1 None, nth s l2 None with
            | None, None => True
            | Some x, Some y => forall j, Q (s, j) = true -> Z.testbit x j = Z.testbit y j
            | _, _ => False
            end.

Lemma eagree_weaken (Q Q' : bit -> bool) e1 e2 : (forall v, Q' v = true -> Q v = true) -> eagree Q e1 e2 -> eagree Q' e1 e2.
Proof. intros H [L A]. split; [exact L|]. intros s j Hq. apply A. apply H. exact Hq. Qed.

Lemma init_rel2 P e1 e2 : eagree P e1 e2 -> rel2 P [] (init_state e1) (init_state e2).
Proof.
  intros [_ A]. apply rel2_nil. exact (rel_fresh P _ _ A).
Qed.

Section Det.
  Variables (G : decls) (n : nat).
  Hypothesis Wb : wf_declsb G = true.

  Lemma run_comb1_det b (P : bit -> bool) e1 e2 : xsub (xreads_d G b) P -> eagree P e1 e2 ->
    res_rel (eagree (un P (must_d G b))) (run_comb1 G n b e1) (run_comb1 G n b e2).
  Proof.
    intros X A. unfold run_comb1.
    apply (res_rel_bind (rel2 P (must_d G b))
             (exec_sdep G b P (init_state e1) (init_state e2) Wb (init_ok e1) X (init_rel2 P e1 e2 A))).
    intros a c _ (S & _ & _). split; [rewrite !map_length; reflexivity|].
    intros s j Hq. rewrite !nth_map_seq. destruct (s <? n)%nat; [apply S; exact Hq|reflexivity].
  Qed.

  Theorem comb_pass_det bs : forall Q Q' e1 e2, det_pass G bs Q = Some Q' -> eagree (mem_fp Q) e1 e2 ->
    res_rel (eagree (mem_fp Q')) (comb_pass G n bs e1) (comb_pass G n bs e2).
  Proof.
    induction bs as [|b r IH]; intros Q Q' e1 e2 H A; cbn [det_pass comb_pass] in *.
    - injection H as <-. exact A.
    - destruct (xcovers Q (xreads_d G b)) eqn:C; [|discriminate].
      apply (res_rel_bind _ (run_comb1_det b (mem_fp Q) e1 e2 (xcovers_sound _ _ C) A)). intros a c _ O.
      apply (IH _ _ a c H). eapply eagree_weaken; [|exact O].
      intros v Hv. unfold un. rewrite mem_fp_app in Hv. rewrite orb_comm. exact Hv.
  Qed.

  (* the result of a block has one value per signal id; a signal none of whose bits the block may write keeps its value *)
  Lemma run_comb1_length b e e' : run_comb1 G n b e = Ok e' -> length e' = n.
  Proof.
    unfold run_comb1. intros H. apply bind_ok in H. destruct H as (st & _ & [= <-]). rewrite map_length. apply seq_length.
  Qed.

  Lemma comb_pass_length bs : forall e e', length e = n -> comb_pass G n bs e = Ok e' -> length e' = n.
  Proof.
    induction bs as [|b r IH]; intros e e' L H; cbn [comb_pass] in H; [injection H as <-; exact L|].
    apply bind_ok in H. destruct H as (e1 & H1 & H2). exact (IH e1 e' (run_comb1_length b e e1 H1) H2).
  Qed.

  (* a bit no block may write keeps its value *)
  Lemma run_comb1_frame b e e' s j : length e = n -> block_wr G b (s, j) = false ->
    run_comb1 G n b e = Ok e' -> Z.testbit (nth s e' 0) j = Z.testbit (nth s e 0) j.
  Proof.
    intros L Hw H. unfold run_comb1 in H. apply bind_ok in H. destruct H as (st & Hst & [= <-]).
    rewrite nth_map_seq. destruct (Nat.ltb_spec s n); [|rewrite (nth_overflow e) by lia; reflexivity].
    exact (proj1 (exec_frame G b (init_state e) st Wb (init_ok e) (fun _ => eq_refl) Hst s j Hw)).
  Qed.

  Lemma comb_pass_frame bs s j : (forall b, In b bs -> block_wr G b (s, j) = false) ->
    forall e e', length e = n -> comb_pass G n bs e = Ok e' -> Z.testbit (nth s e' 0) j = Z.testbit (nth s e 0) j.
  Proof.
    induction bs as [|b r IH]; intros Hw e e' L H; cbn [comb_pass] in H.
    - injection H as <-. reflexivity.
    - apply bind_ok in H. destruct H as (e1 & H1 & H2).
      rewrite (IH (fun b' Hb => Hw b' (or_intror Hb)) e1 e' (run_comb1_length b e e1 H1) H2).
      exact (run_comb1_frame b e e1 s j L (Hw b (or_introl eq_refl)) H1).
  Qed.

  Lemma det_pass_mono bs : forall Q Q', det_pass G bs Q = Some Q' -> forall v, mem_fp Q v = true -> mem_fp Q' v = true.
  Proof.
    induction bs as [|b r IH]; intros Q Q' H v Hv; cbn [det_pass] in H.
    - injection H as <-. exact Hv.
    - destruct (xcovers Q (xreads_d G b)); [|discriminate]. apply (IH _ _ H). rewrite mem_fp_app, Hv. apply orb_true_r.
  Qed.

  Lemma run_ff1_det b Q e1 e2 : covers Q (reads_d G b) = true -> eagree (mem_fp Q) e1 e2 ->
    res_rel (oagree (mem_fp Q)) (run_ff1 G n b e1) (run_ff1 G n b e2).
  Proof.
    intros C A. unfold run_ff1.
    apply (res_rel_bind _
             (two_block G (mem_fp Q) (wf_declsb_sound G Wb) b _ _ (init_ok e1)
                        (proj1 (rel2_nil _ _ _) (init_rel2 _ e1 e2 A)) (covers_sound _ _ C))).
    intros a c _ (_ & N & _). split; [rewrite !map_length; reflexivity|].
    intros s. rewrite !nth_map_seq. destruct (s <? n)%nat; [apply N|exact I].
  Qed.

  Lemma merge_nxt_nth old new s :
    nth s (merge_nxt old new) None =
    if (s <? length old)%nat && (s <? length new)%nat
    then match nth s new None with Some v => Some v | None => nth s old None end else None.
  Proof.
    revert new s. induction old as [|o old IH]; intros new s; cbn [merge_nxt].
    - destruct s; reflexivity.
    - destruct new as [|x new]; cbn [merge_nxt].
      + destruct s; cbn; rewrite ?andb_false_r; reflexivity.
      + destruct s as [|s]; cbn [nth length]; [reflexivity|]. rewrite IH. reflexivity.
  Qed.
  Lemma merge_nxt_length old new : length (merge_nxt old new) = Nat.min (length old) (length new).
  Proof.
    revert new. induction old as [|o old IH]; intros new; cbn [merge_nxt]; [reflexivity|].
    destruct new; cbn [merge_nxt length]; [reflexivity|]. rewrite IH. reflexivity.
  Qed.

  Lemma merge_oagree Q a1 a2 x1 x2 : oagree Q a1 a2 -> oagree Q x1 x2 -> oagree Q (merge_nxt a1 x1) (merge_nxt a2 x2).
  Proof.
    intros [La Aa] [Lx Ax]. split; [rewrite !merge_nxt_length, La, Lx; reflexivity|].
    intros s. rewrite !merge_nxt_nth, La, Lx. destruct ((s <? length a2)%nat && (s <? length x2)%nat); [|exact I].
    specialize (Aa s). specialize (Ax s).
    destruct (nth s x1 None), (nth s x2 None); try contradiction; [exact Ax|exact Aa].
  Qed.

  Lemma ff_pass_det bs Q : forallb (fun b => covers Q (reads_d G b)) bs = true ->
    forall e1 e2 a1 a2, eagree (mem_fp Q) e1 e2 -> oagree (mem_fp Q) a1 a2 ->
    res_rel (oagree (mem_fp Q)) (ff_pass G n bs e1 a1) (ff_pass G n bs e2 a2).
  Proof.
    induction bs as [|b r IH]; intros C e1 e2 a1 a2 A O; cbn [ff_pass].
    - exact O.
    - cbn [forallb] in C. apply andb_prop in C. destruct C as [Cb Cr].
      apply (res_rel_bind _ (run_ff1_det b Q e1 e2 Cb A)). intros x y _ Ob.
      apply (IH Cr); [exact A|]. apply merge_oagree; assumption.
  Qed.

  Lemma flip_length e nx : length (flip e nx) = length e.
  Proof.
    revert nx. induction e as [|v e IH]; intros nx; cbn [flip]; [reflexivity|].
    destruct nx; cbn [flip length]; [reflexivity|]. rewrite IH. reflexivity.
  Qed.
  Lemma flip_nth e nx s :
    nth s (flip e nx) 0 = match nth s nx None with Some w => if (s <? length e)%nat then w else 0 | None => nth s e 0 end.
  Proof.
    revert nx s. induction e as [|v e IH]; intros nx s; cbn [flip].
    - destruct (nth s nx None); destruct s; reflexivity.
    - destruct nx as [|x nx]; cbn [flip].
      + destruct s; reflexivity.
      + destruct s as [|s]; cbn [nth length]; [destruct x; reflexivity|]. rewrite IH. reflexivity.
  Qed.

  Lemma flip_eagree Q e1 e2 x1 x2 : eagree Q e1 e2 -> oagree Q x1 x2 -> eagree Q (flip e1 x1) (flip e2 x2).
  Proof.
    intros [L A] [Lx Ax]. split; [rewrite !flip_length; exact L|].
    intros s j Hq. rewrite !flip_nth, L. specialize (Ax s).
    destruct (nth s x1 None), (nth s x2 None); try contradiction.
    - destruct (s <? length e2)%nat; [apply Ax; exact Hq|reflexivity].
    - apply A. exact Hq.
  Qed.

  (* the same through the clock edge: what an update_ff block leaves pending for a signal agrees, on a bit the block may
     not write, with the value before the edge *)
  Definition pending_keeps (e : senv) (s : nat) (j : Z) (nx : list (option Z)) : Prop :=
    match nth s nx None with Some v => Z.testbit v j = Z.testbit (nth s e 0) j | None => True end.

  Lemma run_ff1_frame b e nx s j : block_wr G b (s, j) = false -> run_ff1 G n b e = Ok nx -> pending_keeps e s j nx.
  Proof.
    intros Hw H. unfold run_ff1 in H. apply bind_ok in H. destruct H as (st & Hst & [= <-]).
    unfold pending_keeps. rewrite nth_map_seq. destruct (s <? n)%nat; [|exact I].
    pose proof (proj2 (exec_frame G b (init_state e) st Wb (init_ok e) (fun _ => eq_refl) Hst s j Hw)) as F.
    unfold final_sig in F. destruct (nxtv st s); [exact F|exact I].
  Qed.

  Lemma ff_pass_frame bs e s j : (forall b, In b bs -> block_wr G b (s, j) = false) ->
    forall acc nx, pending_keeps e s j acc -> ff_pass G n bs e acc = Ok nx -> pending_keeps e s j nx.
  Proof.
    induction bs as [|b r IH]; intros Hw acc nx A H; cbn [ff_pass] in H.
    - injection H as <-. exact A.
    - apply bind_ok in H. destruct H as (x & Hx & H). refine (IH (fun b' Hb => Hw b' (or_intror Hb)) _ _ _ H).
      pose proof (run_ff1_frame b e x s j (Hw b (or_introl eq_refl)) Hx) as X.
      unfold pending_keeps in *. rewrite merge_nxt_nth. destruct (_ && _); [|exact I].
      destruct (nth s x None); [exact X|exact A].
  Qed.
End Det.

Lemma none_oagree Q e1 e2 : length e1 = length e2 ->
  oagree Q (map (fun _ : Z => @None Z) e1) (map (fun _ : Z => @None Z) e2).
Proof.
  intros L. split; [rewrite !map_length; exact L|]. intros s.
  assert (K : forall e : senv, nth s (map (fun _ : Z => @None Z) e) None = None).
  { intros e. exact (map_nth (fun _ : Z => @None Z) e 0 s). }
  rewrite !K. exact I.
Qed.

Theorem sim_tick_obs_det (D : rdesign) Q Q1 Q2 e1 e2 : wf_shapes (rd_shapes D) = true ->
  det_tick D Q = Some (Q1, Q2) -> eagree (mem_fp Q) e1 e2 ->
  match sim_tick_obs D e1, sim_tick_obs D e2 with
  | Ok (a1, a3), Ok (c1, c3) => eagree (mem_fp Q1) a1 c1 /\ eagree (mem_fp Q2) a3 c3
  | Err x, Err y => x = y
  | _, _ => False
  end.
Proof.
  intros Ws H A. pose proof (decls_of_wf _ Ws) as Wb. unfold det_tick in H. fold (rd_decls D) in Wb.
  destruct (det_pass (rd_decls D) (rd_comb D) Q) as [Q1'|] eqn:H1; [|discriminate].
  destruct (forallb (fun b => covers Q1' (reads_d (rd_decls D) b)) (rd_ff D)) eqn:Hf; [|discriminate].
  destruct (det_pass (rd_decls D) (rd_comb D) Q1') as [Q2'|] eqn:H2; [|discriminate].
  injection H as <- <-.
  assert (O : res_rel (fun p q => eagree (mem_fp Q1') (fst p) (fst q) /\ eagree (mem_fp Q2') (snd p) (snd q))
                      (sim_tick_obs D e1) (sim_tick_obs D e2)).
  { unfold sim_tick_obs, sim_eval_comb, clock_edge.
    apply (res_rel_bind _ (comb_pass_det _ _ Wb _ Q Q1' e1 e2 H1 A)). intros a1 c1 _ O1.
    apply (res_rel_bind (eagree (mem_fp Q1'))).
    { apply (res_rel_bind _ (ff_pass_det _ _ Wb _ Q1' Hf a1 c1 _ _ O1 (none_oagree _ a1 c1 (proj1 O1)))).
      intros x1 x2 _ Of. exact (flip_eagree (mem_fp Q1') a1 c1 x1 x2 O1 Of). }
    intros a2 c2 _ O2.
    apply (res_rel_bind _ (comb_pass_det _ _ Wb _ Q1' Q2' a2 c2 H2 O2)). intros a3 c3 _ O3.
    split; assumption. }
  destruct (sim_tick_obs D e1) as [[a1 a3]|x], (sim_tick_obs D e2) as [[c1 c3]|y]; exact O.
Qed.

Theorem sim_eval_comb_det (D : rdesign) Q Q1 e1 e2 : wf_shapes (rd_shapes D) = true ->
  det_pass (rd_decls D) (rd_comb D) Q = Some Q1 -> eagree (mem_fp Q) e1 e2 ->
  match sim_eval_comb D e1, sim_eval_comb D e2 with
  | Ok a, Ok c => eagree (mem_fp Q1) a c
  | Err x, Err y => x = y
  | _, _ => False
  end.
Proof.
  intros Ws H A. pose proof (decls_of_wf _ Ws) as Wb.
  exact (comb_pass_det (rd_decls D) (rd_nsig D) Wb (rd_comb D) Q Q1 e1 e2 H A).
Qed.

Lemma nth_set_nth s k v e : nth s (set_nth k v e) 0 = if (Nat.eqb s k && (k <? length e))%nat then v else nth s e 0.
Proof.
  revert s k. induction e as [|x e IH]; intros s k.
  - destruct k, s; cbn [set_nth nth length]; rewrite ?Bool.andb_false_r; reflexivity.
  - destruct k, s; cbn [set_nth nth length]; try reflexivity. apply IH.
Qed.
Lemma set_nth_length k v e : length (set_nth k v e) = length e.
Proof. revert k. induction e as [|x e IH]; intros [|k]; cbn [set_nth length]; try reflexivity. rewrite IH. reflexivity. Qed.

(* several signals set at once, the first pair outermost *)
Fixpoint set_all (kvs : list (nat * Z)) (e : senv) : senv :=
  match kvs with [] => e | (k, v) :: r => set_nth k v (set_all r e) end.
Lemma set_all_length kvs e : length (set_all kvs e) = length e.
Proof. induction kvs as [|[k v] r IH]; cbn [set_all]; [reflexivity|]. rewrite set_nth_length. exact IH. Qed.
Lemma nth_set_all kvs e k v : NoDup (map fst kvs) -> (forall x, In x (map fst kvs) -> (x < length e)%nat) ->
  In (k, v) kvs -> nth k (set_all kvs e) 0 = v.
Proof.
  induction kvs as [|[k' v'] r IH]; cbn [set_all map fst In]; intros Hnd Hlt Hin; [contradiction|].
  apply NoDup_cons_iff in Hnd as [Hk Hnd]. rewrite nth_set_nth, set_all_length. destruct Hin as [E|Hin].
  - injection E as -> ->. rewrite Nat.eqb_refl, (proj2 (Nat.ltb_lt _ _)) by (apply Hlt; left; reflexivity). reflexivity.
  - rewrite (proj2 (Nat.eqb_neq k k')) by (intros ->; apply Hk; exact (in_map fst _ _ Hin)). apply IH; auto.
Qed.

Lemma nth_set_all_other kvs e s : ~ In s (map fst kvs) -> nth s (set_all kvs e) 0 = nth s e 0.
Proof.
  induction kvs as [|[k v] r IH]; cbn [set_all map fst In]; intros H; [reflexivity|].
  rewrite nth_set_nth, (proj2 (Nat.eqb_neq s k)) by (intros ->; apply H; left; reflexivity). apply IH. tauto.
Qed.

(* Net blocks of signals that share one storage object are empty: they leave the environment as it is.  Evaluating a
   design without them gives the same tick, at the cost of the blocks that do something. *)
Definition live (bs : list (list stmt)) : list (list stmt) :=
  filter (fun b => match b with [] => false | _ => true end) bs.
Definition strip (D : rdesign) : rdesign := mkRD (rd_shapes D) (live (rd_comb D)) (rd_ff D) (rd_expl D).

Lemma run_comb1_nil G e : run_comb1 G (length e) [] e = Ok e.
Proof.
  unfold run_comb1. cbn. f_equal. apply (nth_ext _ _ 0 0).
  - rewrite map_length. apply seq_length.
  - intros s _. rewrite nth_map_seq. destruct (Nat.ltb_spec s (length e)); [reflexivity|].
    symmetry. apply nth_overflow. assumption.
Qed.

Lemma comb_pass_live G n bs e : length e = n -> comb_pass G n (live bs) e = comb_pass G n bs e.
Proof.
  revert e. induction bs as [|[|s b] bs IH]; intros e L; cbn [live filter comb_pass].
  - reflexivity.
  - subst n. rewrite run_comb1_nil. apply IH. reflexivity.
  - destruct (run_comb1 G n (s :: b) e) as [e1|] eqn:E; [|reflexivity]. apply IH. exact (run_comb1_length _ _ _ _ _ E).
Qed.

Lemma sim_eval_comb_strip D e : length e = rd_nsig D -> sim_eval_comb (strip D) e = sim_eval_comb D e.
Proof. intros L. exact (comb_pass_live (rd_decls D) (rd_nsig D) (rd_comb D) e L). Qed.

Lemma sim_eval_comb_length D e e1 : length e = rd_nsig D -> sim_eval_comb D e = Ok e1 -> length e1 = rd_nsig D.
Proof. apply comb_pass_length. Qed.

Lemma clock_edge_length D e e2 : clock_edge D e = Ok e2 -> length e2 = length e.
Proof. unfold clock_edge. intros H. apply bind_ok in H as (nx & _ & H). injection H as <-. apply flip_length. Qed.

Theorem sim_tick_obs_strip D e : length e = rd_nsig D -> sim_tick_obs (strip D) e = sim_tick_obs D e.
Proof.
  intros L. unfold sim_tick_obs. rewrite sim_eval_comb_strip by exact L.
  destruct (sim_eval_comb D e) as [e1|] eqn:E1; [|reflexivity]. cbn [bind]. change (clock_edge (strip D) e1) with (clock_edge D e1).
  destruct (clock_edge D e1) as [e2|] eqn:E2; [|reflexivity]. cbn [bind].
  rewrite sim_eval_comb_strip; [reflexivity|]. rewrite (clock_edge_length _ _ _ E2). exact (sim_eval_comb_length _ _ _ L E1).
Qed.

(* sim_eval_comb and clock_edge with the declaration table as an argument: a sweep over many environments computes
   rd_decls D once and passes it to every case.  *)
Definition eval_comb_with (G : decls) (D : rdesign) (e : senv) : res senv := comb_pass G (rd_nsig D) (rd_comb D) e.
Definition clock_edge_with (G : decls) (D : rdesign) (e : senv) : res senv :=
  bind (ff_pass G (rd_nsig D) (rd_ff D) e (map (fun _ => None) e)) (fun nx => Ok (flip e nx)).
Lemma eval_comb_with_decls D : eval_comb_with (rd_decls D) D = sim_eval_comb D.
Proof. reflexivity. Qed.
Lemma clock_edge_with_decls D : clock_edge_with (rd_decls D) D = clock_edge D.
Proof. reflexivity. Qed.

(* sim_tick = combinational pass ; clock edge ; combinational pass.  The second pass runs on the environment that carries
   the inputs and the NEW registers.  If the first pass is known to succeed on some environment e' that agrees with it on
   the bits Q the pass depends on (det_pass), the second pass succeeds too; and a signal no combinational block writes
   (a register) keeps, through that pass, exactly the value the edge gave it.  So a sweep over all register contents and
   inputs only has to run ONE pass and the edge per case: the second pass of a case is the first pass of another. *)
(* no combinational block has a write interval rooted at a signal of keep *)
Definition comb_keeps (D : rdesign) (keep : list nat) : bool :=
  forallb (fun b => forallb (fun a => negb (existsb (Nat.eqb (iroot a)) keep)) (writes_d (rd_decls D) b)) (rd_comb D).

Lemma comb_keeps_wr D keep s b j : comb_keeps D keep = true -> In s keep -> In b (rd_comb D) -> block_wr (rd_decls D) b (s, j) = false.
Proof.
  unfold comb_keeps, block_wr, mem_fp. intros K Hs Hb. rewrite forallb_forall in K. specialize (K b Hb). rewrite forallb_forall in K.
  apply Bool.not_true_is_false. intros E. apply existsb_exists in E as (a & Ha & E). specialize (K a Ha).
  apply negb_true_iff in K. rewrite (proj2 (existsb_exists _ _)) in K; [discriminate|]. exists s. split; [exact Hs|].
  apply in_ivl_spec in E as [E _]. cbn [fst] in E. apply Nat.eqb_eq. symmetry. exact E.
Qed.

Lemma det_tick_pass D Q Q1 Q2 : det_tick D Q = Some (Q1, Q2) -> det_pass (rd_decls D) (rd_comb D) Q = Some Q1.
Proof.
  unfold det_tick. destruct (det_pass (rd_decls D) (rd_comb D) Q) as [Q1'|]; [|discriminate].
  destruct (forallb _ (rd_ff D)); [|discriminate]. destruct (det_pass _ _ Q1'); [|discriminate]. intros H. injection H as <- _. reflexivity.
Qed.

Theorem tick_from_halves D Q Q1 keep e e1 e2 e' e1' : wf_shapes (rd_shapes D) = true ->
  det_pass (rd_decls D) (rd_comb D) Q = Some Q1 -> comb_keeps D keep = true -> length e = rd_nsig D ->
  sim_eval_comb D e = Ok e1 -> clock_edge D e1 = Ok e2 ->
  eagree (mem_fp Q) e2 e' -> sim_eval_comb D e' = Ok e1' ->
  exists e3, sim_tick_obs D e = Ok (e1, e3) /\ forall s, In s keep -> nth s e3 0 = nth s e2 0.
Proof.
  intros Ws Dp K L E1 E2 A E'. unfold sim_tick_obs. rewrite E1. cbn [bind]. rewrite E2. cbn [bind].
  pose proof (sim_eval_comb_det D Q Q1 e2 e' Ws Dp A) as O. rewrite E' in O.
  destruct (sim_eval_comb D e2) as [e3|] eqn:E3; [|destruct O]. exists e3. split; [reflexivity|]. intros s Hs.
  apply Z.bits_inj'. intros j _.
  apply (comb_pass_frame (rd_decls D) (rd_nsig D) (decls_of_wf _ Ws) (rd_comb D) s j); [| |exact E3].
  - intros b Hb. exact (comb_keeps_wr D keep s b j K Hs Hb).
  - rewrite (clock_edge_length _ _ _ E2). exact (sim_eval_comb_length _ _ _ L E1).
Qed.

(* A bit that no block of the design may write, combinational or update_ff, holds after sim_eval_combinational and after
   the whole tick what it held before.  With the declared write intervals below a signal's width (writes_below) this is
   how the bits above the width stay what they were. *)
Theorem sim_tick_obs_frame D e e1 e3 s j : wf_shapes (rd_shapes D) = true -> length e = rd_nsig D ->
  (forall b, In b (rd_comb D ++ rd_ff D) -> block_wr (rd_decls D) b (s, j) = false) ->
  sim_tick_obs D e = Ok (e1, e3) ->
  Z.testbit (nth s e1 0) j = Z.testbit (nth s e 0) j /\ Z.testbit (nth s e3 0) j = Z.testbit (nth s e 0) j.
Proof.
  intros Ws L Hw H. pose proof (decls_of_wf _ Ws) as Wb. fold (rd_decls D) in Wb. unfold sim_tick_obs in H.
  apply bind_ok in H as (a1 & E1 & H). apply bind_ok in H as (e2 & E2 & H). apply bind_ok in H as (a3 & E3 & H).
  injection H as -> ->.
  pose proof (comb_pass_frame _ _ Wb (rd_comb D) s j (fun b Hb => Hw b (in_or_app _ _ _ (or_introl Hb))) e e1 L E1) as F1.
  split; [exact F1|]. pose proof (sim_eval_comb_length _ _ _ L E1) as L1.
  rewrite (comb_pass_frame _ _ Wb (rd_comb D) s j (fun b Hb => Hw b (in_or_app _ _ _ (or_introl Hb))) e2 e3
             ltac:(rewrite (clock_edge_length _ _ _ E2); exact L1) E3), <- F1.
  unfold clock_edge in E2. apply bind_ok in E2 as (nx & Hn & E2). injection E2 as <-.
  assert (P0 : pending_keeps e1 s j (map (fun _ : Z => @None Z) e1)).
  { unfold pending_keeps. rewrite (map_nth (fun _ : Z => @None Z) e1 0 s). exact I. }
  pose proof (ff_pass_frame _ _ Wb (rd_ff D) e1 s j (fun b Hb => Hw b (in_or_app _ _ _ (or_intror Hb))) _ nx P0 Hn) as P.
  unfold pending_keeps in P. rewrite flip_nth. destruct (nth s nx None) as [w|] eqn:Nx; [|reflexivity].
  destruct (Nat.ltb_spec s (length e1)); [exact P|rewrite (nth_overflow e1) by lia; reflexivity].
Qed.

Definition writes_below (D : rdesign) (s : nat) (w : Z) : bool :=
  forallb (fun b => forallb (fun a => negb (Nat.eqb (iroot a) s) || (ihi a <=? w)) (writes_d (rd_decls D) b)) (rd_comb D ++ rd_ff D).
Lemma writes_below_wr D s w b j : writes_below D s w = true -> w <= j -> In b (rd_comb D ++ rd_ff D) ->
  block_wr (rd_decls D) b (s, j) = false.
Proof.
  unfold writes_below, block_wr, mem_fp. intros K Hj Hb. rewrite forallb_forall in K. specialize (K b Hb). rewrite forallb_forall in K.
  apply Bool.not_true_is_false. intros E. apply existsb_exists in E as (a & Ha & E). specialize (K a Ha).
  apply in_ivl_spec in E as [Hs Hr]. cbn [fst snd] in Hs, Hr. rewrite <- Hs, Nat.eqb_refl in K. cbn [negb orb] in K. lia.
Qed.
