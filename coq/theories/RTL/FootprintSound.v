(* RTL/FootprintSound.v — one run of a block of RTL/Syntax.v against the syntactic footprints of RTL/Footprint.v, for
   the big-step semantics of RTL/Eval.v (every expression and statement constructor, unbounded nesting of if / for):
   an expression reads only its read footprint (eval_dep); an assignment is the replacement of a bit range that lies
   inside the write footprint of its target (resolve_write); hence a block changes only bits inside writes_d
   (exec_frame).  The file also defines a block as a transformer of bit environments (rtl_run, the Sched.Block.blk
   rtl_blk) and shows that the declaration table computed from signal shapes is legal (decls_of_wf).
   That two runs read the same values (eval_dep, resolve_dep) is also here; what two runs of a whole block have in
   common is in RTL/FlowSound.v.  No axioms. *)
From PV Require Import Base.Prelude Bits.BitsSpec Bits.BitsLemmas Bits.SpecFacts Bits.Helpers.
From PV Require Import RTL.Syntax RTL.SyntaxFacts RTL.Eval Sched.Block Sched.Accept RTL.Footprint RTL.Design.
Open Scope Z_scope.

(* Facts about Z used below: bits of a splice and of a slice (r / 2^lo) mod 2^w.  splice_bit is
   BitsLemmas.splice_testbit without the side condition 0 <= i. *)
Lemma splice_bit u lo hi w i : 0 <= lo <= hi -> 0 <= w < 2 ^ (hi - lo) ->
  Z.testbit (splice u lo hi w) i = if (lo <=? i) && (i <? hi) then Z.testbit w (i - lo) else Z.testbit u i.
Proof.
  intros H Hw. destruct (Z.ltb_spec i 0) as [Hi|Hi].
  - rewrite !(Z.testbit_neg_r _ i) by lia.
    destruct (Z.leb_spec lo i); [lia|]. reflexivity.
  - apply splice_testbit; lia.
Qed.

Lemma slice_agree lo w r1 r2 : 0 <= lo -> 0 <= w ->
  (forall j, lo <= j < lo + w -> Z.testbit r1 j = Z.testbit r2 j) -> (r1 / 2 ^ lo) mod 2 ^ w = (r2 / 2 ^ lo) mod 2 ^ w.
Proof.
  intros Hl Hw H. apply Z.bits_inj'. intros i Hi. rewrite !slice_testbit by lia.
  destruct (Z.ltb_spec i w); [apply H; lia|reflexivity].
Qed.

(* bits l .. h-1 of the field of width fw at offset flo *)
Lemma subslice_agree flo fw l h r1 r2 : 0 <= flo -> 0 <= l -> l < h -> h <= fw ->
  (forall j, flo + l <= j < flo + h -> Z.testbit r1 j = Z.testbit r2 j) ->
  (((r1 / 2 ^ flo) mod 2 ^ fw) / 2 ^ l) mod 2 ^ (h - l) = (((r2 / 2 ^ flo) mod 2 ^ fw) / 2 ^ l) mod 2 ^ (h - l).
Proof.
  intros Hf Hl Hlh Hh H. apply slice_agree; [lia|lia|]. intros i Hi.
  rewrite !slice_testbit by lia. destruct (Z.ltb_spec i fw); [|lia]. apply H. lia.
Qed.

Lemma subbit_agree flo fw k r1 r2 : 0 <= flo -> 0 <= k < fw -> Z.testbit r1 (flo + k) = Z.testbit r2 (flo + k) ->
  (((r1 / 2 ^ flo) mod 2 ^ fw) / 2 ^ k) mod 2 = (((r2 / 2 ^ flo) mod 2 ^ fw) / 2 ^ k) mod 2.
Proof.
  intros Hf Hk H. pose proof (subslice_agree flo fw k (k + 1) r1 r2) as K.
  replace (k + 1 - k) with 1 in K by (clear K; lia). apply K; clear K; [lia..|].
  intros j Hj. replace j with (flo + k) by lia. exact H.
Qed.

(* replacing bits l .. h-1 of a field and storing the field back replaces those bits of the signal *)
Definition sub (F : fp) (P : bit -> bool) : Prop := forall v, mem_fp F v = true -> P v = true.

Lemma mem_fp_app F F' v : mem_fp (F ++ F') v = mem_fp F v || mem_fp F' v.
Proof. unfold mem_fp. apply existsb_app. Qed.

Lemma sub_app F F' P : sub (F ++ F') P <-> sub F P /\ sub F' P.
Proof.
  unfold sub. split.
  - intros H. split; intros v Hv; apply H; rewrite mem_fp_app, Hv; auto using orb_true_r.
  - intros [H1 H2] v Hv. rewrite mem_fp_app in Hv. apply orb_prop in Hv. destruct Hv; auto.
Qed.

(* a forallb over the bits of an interval gives the property for every bit of it: what covers / xcovers compute *)
Lemma ivl_forall (Q : bit -> bool) a :
  forallb (fun k => Q (iroot a, ilo a + Z.of_nat k)) (seq 0 (Z.to_nat (ihi a - ilo a))) = true ->
  forall v, in_ivl v a = true -> Q v = true.
Proof.
  intros H [r j] Hv. apply in_ivl_spec in Hv. cbn [fst snd] in Hv. destruct Hv as [-> Hj]. rewrite forallb_forall in H.
  specialize (H (Z.to_nat (j - ilo a))). replace (ilo a + Z.of_nat (Z.to_nat (j - ilo a))) with j in H by lia.
  apply H. apply in_seq. lia.
Qed.

Lemma mem_single s lo hi r j : mem_fp [(s, lo, hi)] (r, j) = Nat.eqb r s && (lo <=? j) && (j <? hi).
Proof. unfold mem_fp, in_ivl. cbn [existsb iroot ilo ihi fst snd]. apply orb_false_r. Qed.

Lemma mem_single_iff s lo hi r j : mem_fp [(s, lo, hi)] (r, j) = true <-> r = s /\ lo <= j < hi.
Proof. rewrite mem_single. exact (in_ivl_spec (r, j) (s, lo, hi)). Qed.

(* Every Bits value the evaluator produces is below 2^width.  Footprint soundness needs it for stored values only:
   splice u lo hi w replaces exactly bits [lo,hi) only if w < 2^(hi-lo), else it spills into higher bits. *)
Definition value_wf (v : value) : Prop :=
  match v with VBits n u => wfn n /\ inrange n u | VInt _ => True end.
Definition wf_decls (G : decls) : Prop :=
  forall s p f, lookup_sig G s p = Some f -> 0 < fw f < 1024 /\ 0 <= flo f.
Definition st_ok (st : state) : Prop := forall i v, tmpv st i = Some v -> value_wf v.

Lemma init_ok e : st_ok (init_state e).
Proof. intros i v H. discriminate. Qed.

Lemma wf_declsb_sound G : wf_declsb G = true -> wf_decls G.
Proof.
  unfold wf_declsb, wf_decls. induction G as [|[[s' p'] f'] G IH]; cbn [forallb lookup_sig snd]; intros H s p f.
  - discriminate.
  - apply andb_prop in H. destruct H as [H1 H2].
    destruct (Nat.eqb s s' && path_eqb p p').
    + intros [= <-]. unfold wf_finfo in H1. lia.
    + apply IH. exact H2.
Qed.

Lemma owf_operand v : value_wf v -> owf (to_operand v).
Proof. destruct v; cbn; auto. Qed.

Lemma vbits_wf r v : vbits r = Ok v -> (forall n u, r = Ok (n, u) -> wfn n /\ inrange n u) -> value_wf v.
Proof. intros H K. destruct r as [[n u]|]; [|discriminate]. injection H as <-. exact (K n u eq_refl). Qed.

Lemma wf1 u : 0 <= u < 2 -> wfn 1 /\ inrange 1 u.
Proof. unfold wfn, inrange. change (2 ^ 1) with 2. lia. Qed.

Lemma spec_init_wf n o t v : owf o -> vbits (spec_init n o t) = Ok v -> value_wf v.
Proof.
  intros Ho H. apply (vbits_wf _ _ H). intros m u E.
  apply spec_init_range in E; [|exact Ho]. destruct E as (-> & Hn & Hu). auto.
Qed.

Lemma eval_cast_wf n x v : value_wf x -> eval_cast n x = Ok v -> value_wf v.
Proof. intros Hx. unfold eval_cast. apply spec_init_wf. apply owf_operand. exact Hx. Qed.

Lemma eval_int_bin_wf op a b v : eval_int_bin op a b = Ok v -> value_wf v.
Proof.
  destruct op; cbn; try (intros [= <-]; exact I); try discriminate;
    destruct (b <? 0); try discriminate; destruct (int_shift_limit <? b); try discriminate; intros [= <-]; exact I.
Qed.

Lemma eval_bin_wf op x y v : value_wf x -> value_wf y -> eval_bin op x y = Ok v -> value_wf v.
Proof.
  intros Hx Hy. destruct x as [n a|a]; cbn [eval_bin].
  - intros H. apply (vbits_wf _ _ H). intros m u E. cbn in Hx.
    apply spec_binop_range in E; [|tauto|tauto|apply owf_operand; exact Hy]. destruct E as [-> E]. tauto.
  - destruct y as [n b|b]; [|apply eval_int_bin_wf].
    cbn in Hy. destruct op; try discriminate; intros H; apply (vbits_wf _ _ H); intros m u E;
      first [apply spec_binop_range in E; [|tauto|tauto|exact I] | apply spec_rbinop_range in E; [|tauto|tauto]];
      destruct E as [-> E]; tauto.
Qed.

Lemma eval_cmp_wf op x y v : eval_cmp op x y = Ok v -> value_wf v.
Proof.
  destruct x as [n a|a]; cbn [eval_cmp]; [|destruct y as [n b|b]; [|intros [= <-]; exact I]];
    intros H; apply (vbits_wf _ _ H); intros m u E; apply spec_cmp_bool in E; destruct E as [-> E]; apply wf1; lia.
Qed.

Lemma eval_inv_wf x v : value_wf x -> eval_inv x = Ok v -> value_wf v.
Proof.
  destruct x as [n u|z]; cbn.
  - intros [Hn Hu] [= <-]. cbn. split; [exact Hn|]. apply spec_invert_range; assumption.
  - intros _ [= <-]. exact I.
Qed.

Lemma getitem_wf n u i v : wfn n -> vbits (spec_getitem n u i) = Ok v -> value_wf v.
Proof.
  intros Hn H. apply (vbits_wf _ _ H). intros m w E. unfold wfn in Hn.
  destruct i as [s e st|k]; cbn [spec_getitem] in E.
  - destruct (negb (step_trivial st)); [discriminate|].
    destruct (valid_range n (bound s 0) (bound e n)) eqn:V; [|discriminate]. injection E as <- <-.
    unfold valid_range in V. unfold wfn, inrange. split; [lia|].
    apply Z.mod_pos_bound. apply pow2_gt0. lia.
  - destruct ((0 <=? k) && (k <? n)); [|discriminate]. injection E as <- <-.
    apply wf1. apply Z.mod_pos_bound. lia.
Qed.

Lemma eval_slice_wf x l h v : value_wf x -> eval_slice x l h = Ok v -> value_wf v.
Proof. destruct x as [n u|z]; cbn [eval_slice value_wf]; [|discriminate]. intros [Hn _]. apply getitem_wf. exact Hn. Qed.
Lemma eval_index_wf x i v : value_wf x -> eval_index x i = Ok v -> value_wf v.
Proof. destruct x as [n u|z]; cbn [eval_index value_wf]; [|discriminate]. intros [Hn _]. apply getitem_wf. exact Hn. Qed.

Lemma eval_concat_wf vs v : eval_concat vs = Ok v -> value_wf v.
Proof.
  unfold eval_concat. destruct (bits_list vs) as [l|]; [|discriminate].
  unfold h_concat. destruct (concat_fold l) as [nb w]. apply spec_init_wf. exact I.
Qed.

Lemma eval_ext_wf f n x v : (forall m u y, vbits (f m u n false) = Ok y -> value_wf y) -> eval_ext f n x = Ok v -> value_wf v.
Proof. intros Hf. destruct x as [m u|z]; cbn [eval_ext]; [apply Hf|discriminate]. Qed.

Lemma h_zext_wf m u n v : vbits (h_zext m u n false) = Ok v -> value_wf v.
Proof. unfold h_zext. destruct (_ && _); [discriminate|]. apply spec_init_wf. exact I. Qed.
Lemma h_sext_wf m u n v : vbits (h_sext m u n false) = Ok v -> value_wf v.
Proof. unfold h_sext. destruct (_ && _); [discriminate|]. apply spec_init_wf. exact I. Qed.
Lemma h_trunc_wf m u n v : vbits (h_trunc m u n false) = Ok v -> value_wf v.
Proof. unfold h_trunc. destruct (_ && _); [discriminate|]. apply spec_init_wf. exact I. Qed.

Lemma eval_red_wf op x v : eval_red op x = Ok v -> value_wf v.
Proof.
  assert (B : forall b, wfn 1 /\ inrange 1 (b2z b)) by (intros b; apply wf1; destruct b; cbn; lia).
  assert (L : forall z, wfn 1 /\ inrange 1 (Z.land z 1)).
  { intros z. apply wf1. rewrite (Z.land_ones z 1 ltac:(lia) : Z.land z 1 = z mod 2). apply Z.mod_pos_bound. lia. }
  destruct x as [n u|z]; cbn [eval_red].
  - intros [= <-]. destruct op; cbn [h_reduce_and h_reduce_or h_reduce_xor fst snd value_wf]; auto.
  - destruct op; [discriminate| |].
    + intros [= <-]. apply B.
    + destruct (z <? 0); [discriminate|]. intros [= <-]. apply L.
Qed.

Lemma read_field_wf G s p f r : wf_decls G -> lookup_sig G s p = Some f -> value_wf (read_field f r).
Proof.
  intros W H. destruct (W s p f H) as [Hw Hl]. cbn. unfold wfn, inrange. split; [lia|].
  apply Z.mod_pos_bound. apply pow2_gt0. lia.
Qed.

Lemma eval_wf G st e : wf_decls G -> st_ok st -> forall v, eval G st e = Ok v -> value_wf v.
Proof.
  intros W S. induction e using expr_ind'; intros v Hev; cbn [eval] in Hev.
  - (* ESig *) destruct (lookup_sig G s p) eqn:E; [|discriminate]. injection Hev as <-. eapply read_field_wf; eauto.
  - (* ELit *) injection Hev as <-. exact I.
  - (* ESized *) eapply eval_cast_wf; [|exact Hev]. exact I.
  - (* EFree *) injection Hev as <-. exact I.
  - (* ECast *) apply bind_ok in Hev. destruct Hev as (x & Hx & Hev). eapply eval_cast_wf; [|exact Hev]. auto.
  - (* EBin *) apply bind_ok in Hev. destruct Hev as (x & Hx & Hev). apply bind_ok in Hev. destruct Hev as (y & Hy & Hev).
    eapply eval_bin_wf; [| |exact Hev]; auto.
  - (* ECmp *) apply bind_ok in Hev. destruct Hev as (x & Hx & Hev). apply bind_ok in Hev. destruct Hev as (y & Hy & Hev).
    eapply eval_cmp_wf; exact Hev.
  - (* EInv *) apply bind_ok in Hev. destruct Hev as (x & Hx & Hev). eapply eval_inv_wf; [|exact Hev]. auto.
  - (* ESlice *) apply bind_ok in Hev. destruct Hev as (x & Hx & Hev). apply bind_ok in Hev. destruct Hev as (y & Hy & Hev).
    apply bind_ok in Hev. destruct Hev as (z & Hz & Hev). eapply eval_slice_wf; [|exact Hev]. auto.
  - (* EIdx *) apply bind_ok in Hev. destruct Hev as (x & Hx & Hev). apply bind_ok in Hev. destruct Hev as (y & Hy & Hev).
    eapply eval_index_wf; [|exact Hev]. auto.
  - (* EConcat *) apply bind_ok in Hev. destruct Hev as (x & Hx & Hev). eapply eval_concat_wf; exact Hev.
  - (* EZext *) apply bind_ok in Hev. destruct Hev as (x & Hx & Hev). exact (eval_ext_wf _ _ _ _ (fun m u => h_zext_wf m u n) Hev).
  - (* ESext *) apply bind_ok in Hev. destruct Hev as (x & Hx & Hev). exact (eval_ext_wf _ _ _ _ (fun m u => h_sext_wf m u n) Hev).
  - (* ETrunc *) apply bind_ok in Hev. destruct Hev as (x & Hx & Hev). exact (eval_ext_wf _ _ _ _ (fun m u => h_trunc_wf m u n) Hev).
  - (* ERed *) apply bind_ok in Hev. destruct Hev as (x & Hx & Hev). eapply eval_red_wf; exact Hev.
  - (* EIf *) apply bind_ok in Hev. destruct Hev as (x & Hx & Hev). destruct (truthy x); auto.
  - (* ETmp *) destruct (tmpv st i) eqn:E; [|discriminate]. injection Hev as <-. eapply S; eauto.
  - (* ELoop *) destruct (loopv st i); [|discriminate]. injection Hev as <-. exact I.
Qed.

Definition lenv_ok (L : lenv) (st : state) : Prop := forall i z, lookup_l L i = Some z -> loopv st i = Some z.

Lemma static_int_sound G L st e : lenv_ok L st -> forall k, static_int L e = Some k -> eval G st e = Ok (VInt k).
Proof.
  intros HL. induction e; intros k H; cbn [static_int] in H; try discriminate.
  - injection H as <-. reflexivity.
  - injection H as <-. reflexivity.
  - destruct (static_int L e1) as [x|] eqn:E1; [|discriminate]. destruct (static_int L e2) as [y|] eqn:E2; [|discriminate].
    cbn [eval]. rewrite (IHe1 _ eq_refl), (IHe2 _ eq_refl). cbn [bind eval_bin eval_int_bin].
    destruct op; try discriminate; injection H as <-; reflexivity.
  - cbn [eval]. rewrite (HL _ _ H). reflexivity.
Qed.

Lemma slice_fp_cases G L s p lo hi f : lookup_sig G s p = Some f ->
  (slice_fp G L s p lo hi = [(s, flo f, flo f + fw f)] /\ must_lhs G L (LSlice s p lo hi) = []) \/
  exists l h, static_int L lo = Some l /\ static_int L hi = Some h /\ valid_range (fw f) l h = true /\
    slice_fp G L s p lo hi = [(s, flo f + l, flo f + h)] /\ must_lhs G L (LSlice s p lo hi) = [(s, flo f + l, flo f + h)].
Proof.
  intros Lk. unfold slice_fp. cbn [must_lhs]. rewrite Lk.
  destruct (static_int L lo) as [l|]; [|auto]. destruct (static_int L hi) as [h|]; [|auto].
  destruct (valid_range (fw f) l h) eqn:V; [|auto]. right. exists l, h. auto 6.
Qed.

Lemma index_fp_cases G L s p i f : lookup_sig G s p = Some f ->
  (index_fp G L s p i = [(s, flo f, flo f + fw f)] /\ must_lhs G L (LIndex s p i) = []) \/
  exists k, static_int L i = Some k /\ (0 <=? k) && (k <? fw f) = true /\
    index_fp G L s p i = [(s, flo f + k, flo f + k + 1)] /\ must_lhs G L (LIndex s p i) = [(s, flo f + k, flo f + k + 1)].
Proof.
  intros Lk. unfold index_fp. cbn [must_lhs]. rewrite Lk.
  destruct (static_int L i) as [k|]; [|auto]. destruct ((0 <=? k) && (k <? fw f)) eqn:V; [|auto]. right. exists k. auto.
Qed.

Definition sig_agree (P : bit -> bool) (st1 st2 : state) : Prop :=
  forall s j, P (s, j) = true -> Z.testbit (sigv st1 s) j = Z.testbit (sigv st2 s) j.
Definition loc_eq (st1 st2 : state) : Prop :=
  (forall i, tmpv st1 i = tmpv st2 i) /\ (forall i, loopv st1 i = loopv st2 i).

Lemma lenv_ok_eq L st1 st2 : loc_eq st1 st2 -> lenv_ok L st1 -> lenv_ok L st2.
Proof. intros [_ E] H i z Hi. rewrite <- E. apply H. exact Hi. Qed.

(* equations for the nested fixpoints of Eval.v and Footprint.v (here and before keeps), so that cbn never exposes a
   local fix *)
Lemma eval_slice_unfold G st a lo hi :
  eval G st (ESlice a lo hi) =
  bind (eval G st a) (fun x => bind (eval G st lo) (fun l => bind (eval G st hi) (fun h => eval_slice x l h))).
Proof. reflexivity. Qed.
Lemma eval_idx_unfold G st a i :
  eval G st (EIdx a i) = bind (eval G st a) (fun x => bind (eval G st i) (fun k => eval_index x k)).
Proof. reflexivity. Qed.
Lemma reads_concat_cons G L x r : reads_e G L (EConcat (x :: r)) = reads_e G L x ++ reads_e G L (EConcat r).
Proof. reflexivity. Qed.
Lemma eval_list_cons (f : expr -> res value) x r :
  eval_list f (x :: r) = bind (f x) (fun v => bind (eval_list f r) (fun vs => Ok (v :: vs))).
Proof. reflexivity. Qed.
Lemma base_sig_inv a s p : base_sig a = Some (s, p) -> a = ESig s p.
Proof. destruct a; cbn; try discriminate. intros [= -> ->]. reflexivity. Qed.

Section EvalDep.
  Variables (G : decls) (P : bit -> bool) (st1 st2 : state).
  Hypothesis W : wf_decls G.
  Hypothesis A : sig_agree P st1 st2.
  Hypothesis E : loc_eq st1 st2.

  Lemma ivl_agree s lo hi : sub [(s, lo, hi)] P ->
    forall j, lo <= j < hi -> Z.testbit (sigv st1 s) j = Z.testbit (sigv st2 s) j.
  Proof. intros S j Hj. apply A. apply S. apply mem_single_iff. auto. Qed.

  Lemma eval_sig_dep s p : sub (whole_fp G s p) P -> eval G st1 (ESig s p) = eval G st2 (ESig s p).
  Proof.
    intros S. cbn [eval]. unfold whole_fp in S. destruct (lookup_sig G s p) as [f|] eqn:Lk; [|reflexivity].
    destruct (W _ _ _ Lk) as [Hw Hl]. unfold read_field. do 2 f_equal.
    apply slice_agree; [lia|lia|]. apply ivl_agree. exact S.
  Qed.

  Lemma eval_slice_sig_dep L s p lo hi : lenv_ok L st1 -> sub (slice_fp G L s p lo hi) P ->
    eval G st1 lo = eval G st2 lo -> eval G st1 hi = eval G st2 hi ->
    eval G st1 (ESlice (ESig s p) lo hi) = eval G st2 (ESlice (ESig s p) lo hi).
  Proof.
    intros HL S Hlo Hhi. rewrite !eval_slice_unfold, Hlo, Hhi.
    destruct (lookup_sig G s p) as [f|] eqn:Lk; [|cbn [eval]; rewrite Lk; reflexivity].
    destruct (slice_fp_cases G L s p lo hi f Lk) as [[Fp _]|(l & h & SL & SH & V & Fp & _)]; rewrite Fp in S.
    - rewrite (eval_sig_dep s p); [reflexivity|]. unfold whole_fp. rewrite Lk. exact S.
    - pose proof (lenv_ok_eq L st1 st2 E HL) as HL2.
      rewrite (static_int_sound G L st2 lo HL2 l SL), (static_int_sound G L st2 hi HL2 h SH).
      cbn [eval]. rewrite Lk. cbn [bind eval_slice read_field value_int]. unfold spec_getitem. cbn [step_trivial negb bound]. rewrite V.
      destruct (W _ _ _ Lk) as [Hw Hl]. unfold valid_range in V.
      rewrite (subslice_agree (flo f) (fw f) l h (sigv st1 s) (sigv st2 s)); [reflexivity|lia..|].
      apply ivl_agree. exact S.
  Qed.

  Lemma eval_idx_sig_dep L s p i : lenv_ok L st1 -> sub (index_fp G L s p i) P ->
    eval G st1 i = eval G st2 i ->
    eval G st1 (EIdx (ESig s p) i) = eval G st2 (EIdx (ESig s p) i).
  Proof.
    intros HL S Hi. rewrite !eval_idx_unfold, Hi.
    destruct (lookup_sig G s p) as [f|] eqn:Lk; [|cbn [eval]; rewrite Lk; reflexivity].
    destruct (index_fp_cases G L s p i f Lk) as [[Fp _]|(k & SI & V & Fp & _)]; rewrite Fp in S.
    - rewrite (eval_sig_dep s p); [reflexivity|]. unfold whole_fp. rewrite Lk. exact S.
    - rewrite (static_int_sound G L st2 i (lenv_ok_eq L st1 st2 E HL) k SI).
      cbn [eval]. rewrite Lk. cbn [bind eval_index read_field value_int]. unfold spec_getitem. rewrite V.
      destruct (W _ _ _ Lk) as [Hw Hl].
      rewrite (subbit_agree (flo f) (fw f) k (sigv st1 s) (sigv st2 s)); [reflexivity|lia|lia|].
      apply (ivl_agree _ _ _ S). lia.
  Qed.

  Lemma eval_dep L e : lenv_ok L st1 -> sub (reads_e G L e) P -> eval G st1 e = eval G st2 e.
  Proof.
    intros HL. induction e using expr_ind'; intros S.
    - (* ESig *) apply eval_sig_dep. exact S.
    - (* ELit *) reflexivity.
    - (* ESized *) reflexivity.
    - (* EFree *) reflexivity.
    - (* ECast *) cbn [reads_e] in S. cbn [eval]. rewrite (IHe S). reflexivity.
    - (* EBin *) cbn [reads_e] in S. apply sub_app in S. destruct S as [S1 S2]. cbn [eval]. rewrite (IHe1 S1), (IHe2 S2). reflexivity.
    - (* ECmp *) cbn [reads_e] in S. apply sub_app in S. destruct S as [S1 S2]. cbn [eval]. rewrite (IHe1 S1), (IHe2 S2). reflexivity.
    - (* EInv *) cbn [reads_e] in S. cbn [eval]. rewrite (IHe S). reflexivity.
    - (* ESlice *) cbn [reads_e] in S. apply sub_app in S. destruct S as [Sa S]. apply sub_app in S. destruct S as [Sl Sh].
      destruct (base_sig e1) as [[s p]|] eqn:B.
      + apply base_sig_inv in B. subst e1. apply (eval_slice_sig_dep L); auto.
      + rewrite !eval_slice_unfold, (IHe1 Sa), (IHe2 Sl), (IHe3 Sh). reflexivity.
    - (* EIdx *) cbn [reads_e] in S. apply sub_app in S. destruct S as [Sa Si].
      destruct (base_sig e1) as [[s p]|] eqn:B.
      + apply base_sig_inv in B. subst e1. apply (eval_idx_sig_dep L); auto.
      + rewrite !eval_idx_unfold, (IHe1 Sa), (IHe2 Si). reflexivity.
    - (* EConcat *) cbn [eval]. assert (K : eval_list (eval G st1) es = eval_list (eval G st2) es).
      { induction H as [|x r Hx Hr IH]; [reflexivity|].
        rewrite reads_concat_cons in S. apply sub_app in S. destruct S as [S1 S2].
        rewrite !eval_list_cons, (Hx S1), (IH S2). reflexivity. }
      rewrite K. reflexivity.
    - (* EZext *) cbn [reads_e] in S. cbn [eval]. rewrite (IHe S). reflexivity.
    - (* ESext *) cbn [reads_e] in S. cbn [eval]. rewrite (IHe S). reflexivity.
    - (* ETrunc *) cbn [reads_e] in S. cbn [eval]. rewrite (IHe S). reflexivity.
    - (* ERed *) cbn [reads_e] in S. cbn [eval]. rewrite (IHe S). reflexivity.
    - (* EIf *) cbn [reads_e] in S. apply sub_app in S. destruct S as [Sc S]. apply sub_app in S. destruct S as [Sa Sb].
      cbn [eval]. rewrite (IHe1 Sc). destruct (eval G st2 e1) as [vc|]; cbn [bind]; [|reflexivity].
      destruct (truthy vc); auto.
    - (* ETmp *) cbn [eval]. rewrite (proj1 E i). reflexivity.
    - (* ELoop *) cbn [eval]. rewrite (proj2 E i). reflexivity.
  Qed.
End EvalDep.

(* An assignment either binds a temporary or replaces bits [lo,hi) of one packed signal by w. *)
Inductive action : Type :=
| ATmp   (i : nat) (v : value)
| AWrite (blocking : bool) (s : nat) (lo hi w : Z).

Definition apply_action (st : state) (a : action) : state :=
  match a with
  | ATmp i v => set_tmp st i v
  | AWrite b s lo hi w => write_root st b s (splice (sigv st s) lo hi w)
  end.

(* The bits [lo,hi) of field f of signal s that a signal target names, once its bounds are evaluated.  The last
   component says that the assignment is refused after its right-hand side has been evaluated (<<= to a field). *)
Definition target (G : decls) (st : state) (l : lhs) (blocking : bool) : res (nat * finfo * Z * Z * bool) :=
  match l with
  | LTmp _ => Err EOther
  | LSig s p =>
      match lookup_sig G s p with
      | None => Err EOther
      | Some f => Ok (s, f, 0, fw f, negb blocking && negb (match p with [] => true | _ => false end))
      end
  | LSlice s p lo hi =>
      match lookup_sig G s p with
      | None => Err EOther
      | Some f =>
          if negb blocking then Err EOther else
          bind (eval G st lo) (fun vl => bind (eval G st hi) (fun vh =>
          if valid_range (fw f) (value_int vl) (value_int vh) then Ok (s, f, value_int vl, value_int vh, false)
          else Err EIndex))
      end
  | LIndex s p ix =>
      match lookup_sig G s p with
      | None => Err EOther
      | Some f =>
          if negb blocking then Err EOther else
          bind (eval G st ix) (fun vi =>
          if (0 <=? value_int vi) && (value_int vi <? fw f) then Ok (s, f, value_int vi, value_int vi + 1, false)
          else Err EIndex)
      end
  end.

Definition store (G : decls) (st : state) (e : expr) (blocking : bool) (t : nat * finfo * Z * Z * bool) : res action :=
  let '(s, f, lo, hi, refused) := t in
  bind (eval G st e) (fun v =>
  if refused then Err EOther else
  bind (spec_store (hi - lo) (to_operand v)) (fun u => Ok (AWrite blocking s (flo f + lo) (flo f + hi) u))).

(* mirrors Eval.exec_assign (same order of evaluation, same errors): Python evaluates the index expressions of the
   target and reads s.x[lo:hi] before the right-hand side, hence target before store *)
Definition resolve (G : decls) (st : state) (l : lhs) (e : expr) (blocking : bool) : res action :=
  match l with
  | LTmp i => bind (eval G st e) (fun v => Ok (ATmp i v))
  | _ => bind (target G st l blocking) (store G st e blocking)
  end.

Lemma store_range G st e v n u : wf_decls G -> st_ok st -> eval G st e = Ok v -> 0 < n < 1024 ->
  spec_store n (to_operand v) = Ok u -> 0 <= u < 2 ^ n.
Proof. intros W S Hv Hn Hu. eapply spec_store_range; [exact Hn|apply owf_operand; eapply eval_wf; eauto|exact Hu]. Qed.

(* In the slice / bit cases spec_getitem succeeds iff the range is valid; the store is at the width just read, so
   spec_setitem cannot fail; and writing the updated field back into the signal is ONE splice (splice_field).
   wf_decls and st_ok are needed only for the range of the stored value.  (RTL/EvalLemmas.v: exec_assign_cases is the
   other characterisation of exec_assign, by outcome.) *)
Lemma exec_assign_resolve G st lbl l e b : wf_decls G -> st_ok st ->
  exec_assign G st lbl l e b =
  bind (resolve G st l e b)
       (fun a => Ok (apply_action (add_evs st (map (fun p => (lbl, fst p, snd p)) (probes G st 0 e))) a)).
Proof.
  intros W S. destruct l as [s p|s p lo hi|s p ix|i]; unfold exec_assign, resolve, target, store.
  - destruct (lookup_sig G s p) as [f|]; [|reflexivity]. cbn [bind].
    destruct (eval G st e) as [v|]; cbn [bind fst snd]; [|reflexivity].
    destruct (negb b && _); [reflexivity|]. rewrite Z.sub_0_r, Z.add_0_r.
    destruct (spec_store (fw f) (to_operand v)); reflexivity.
  - destruct (lookup_sig G s p) as [f|] eqn:Lk; [|reflexivity].
    destruct b; [|reflexivity]. cbn [negb].
    destruct (eval G st lo) as [vl|]; cbn [bind]; [|reflexivity].
    destruct (eval G st hi) as [vh|]; cbn [bind]; [|reflexivity].
    unfold spec_getitem. cbn [step_trivial negb bound].
    destruct (valid_range (fw f) (value_int vl) (value_int vh)) eqn:V; cbn [bind]; [|reflexivity].
    destruct (eval G st e) as [v|] eqn:Ev; cbn [bind fst snd]; [|reflexivity].
    destruct (spec_store (value_int vh - value_int vl) (to_operand v)) as [u|] eqn:St; cbn [bind]; [|reflexivity].
    unfold spec_setitem. cbn [step_trivial negb bound]. rewrite V. cbn [spec_store]. rewrite Z.eqb_refl. cbn [bind fst snd].
    destruct (W _ _ _ Lk) as [Hw Hl]. unfold valid_range in V.
    pose proof (store_range G st e v (value_int vh - value_int vl) u W S Ev ltac:(lia) St) as Ru.
    cbn [apply_action write_root add_evs sigv value_int read_field]. rewrite splice_field by lia. reflexivity.
  - destruct (lookup_sig G s p) as [f|] eqn:Lk; [|reflexivity].
    destruct b; [|reflexivity]. cbn [negb].
    destruct (eval G st ix) as [vi|]; cbn [bind]; [|reflexivity].
    unfold spec_getitem.
    destruct ((0 <=? value_int vi) && (value_int vi <? fw f)) eqn:V; cbn [bind]; [|reflexivity].
    destruct (eval G st e) as [v|] eqn:Ev; cbn [bind fst snd]; [|reflexivity].
    replace (value_int vi + 1 - value_int vi) with 1 by lia.
    destruct (spec_store 1 (to_operand v)) as [u|] eqn:St; cbn [bind]; [|reflexivity].
    unfold spec_setitem. rewrite V. change (1 <? 1) with false. cbn [bind fst snd].
    destruct (W _ _ _ Lk) as [Hw Hl].
    pose proof (store_range G st e v 1 u W S Ev ltac:(lia) St) as Ru.
    change (2 ^ 1) with 2 in Ru. rewrite (Z.mod_small u 2) by lia.
    cbn [apply_action write_root add_evs sigv value_int read_field].
    rewrite splice_field; [reflexivity|lia|lia|lia|lia|].
    replace (value_int vi + 1 - value_int vi) with 1 by lia. exact Ru.
  - destruct (eval G st e) as [v|]; reflexivity.
Qed.

Lemma resolve_dep G P st1 st2 L l e b : wf_decls G -> sig_agree P st1 st2 -> loc_eq st1 st2 -> lenv_ok L st1 ->
  sub (reads_lhs G L l ++ reads_e G L e) P -> resolve G st1 l e b = resolve G st2 l e b.
Proof.
  intros W A E HL S. apply sub_app in S. destruct S as [Sl Se].
  pose proof (eval_dep G P st1 st2 W A E L e HL Se) as He.
  assert (Ht : target G st1 l b = target G st2 l b).
  { destruct l as [s p|s p lo hi|s p ix|i]; cbn [target reads_lhs] in *; [reflexivity| | |reflexivity].
    - apply sub_app in Sl. destruct Sl as [S1 S2].
      rewrite (eval_dep G P st1 st2 W A E L lo HL S1), (eval_dep G P st1 st2 W A E L hi HL S2). reflexivity.
    - rewrite (eval_dep G P st1 st2 W A E L ix HL Sl). reflexivity. }
  destruct l as [s p|s p lo hi|s p ix|i]; cbn [resolve];
    [rewrite Ht; unfold store; rewrite He; reflexivity..|rewrite He; reflexivity].
Qed.

Lemma store_inv G st e b s f lo hi refused a : store G st e b (s, f, lo, hi, refused) = Ok a ->
  refused = false /\ exists v u, eval G st e = Ok v /\ spec_store (hi - lo) (to_operand v) = Ok u /\
                                 a = AWrite b s (flo f + lo) (flo f + hi) u.
Proof.
  cbn [store]. intros H. apply bind_ok in H. destruct H as (v & Hv & H). destruct refused; [discriminate|].
  apply bind_ok in H. destruct H as (u & Hu & [= <-]). eauto 6.
Qed.

Lemma resolve_cases G st l e b a : resolve G st l e b = Ok a ->
  (exists i v, l = LTmp i /\ eval G st e = Ok v /\ a = ATmp i v) \/
  (exists t, target G st l b = Ok t /\ store G st e b t = Ok a).
Proof.
  destruct l as [s p|s p lo hi|s p ix|i]; cbn [resolve]; intros H;
    [right; apply bind_ok in H; destruct H as (t & Ht & H); eauto..|left].
  apply bind_ok in H. destruct H as (v & Hv & [= <-]). eauto 6.
Qed.

(* the bits a signal target names lie inside its field and inside the syntactic write footprint of the target, and
   contain its definitely written bits *)
Lemma target_spec G st L l b s f lo hi refused : wf_decls G -> lenv_ok L st ->
  target G st l b = Ok (s, f, lo, hi, refused) ->
  0 <= flo f /\ 0 <= lo < hi /\ hi <= fw f < 1024 /\
  (forall j, flo f + lo <= j < flo f + hi -> mem_fp (writes_lhs G L l) (s, j) = true) /\
  (forall s' j, mem_fp (must_lhs G L l) (s', j) = true -> s' = s /\ flo f + lo <= j < flo f + hi).
Proof.
  intros W HL H. destruct l as [s0 p|s0 p elo ehi|s0 p ix|k]; cbn [target writes_lhs] in *; [| | |discriminate].
  - destruct (lookup_sig G s0 p) as [f0|] eqn:Lk; [|discriminate]. injection H as <- <- <- <- <-.
    destruct (W _ _ _ Lk) as [Hw Hl]. cbn [must_lhs]. unfold whole_fp. rewrite Lk, Z.add_0_r.
    split; [lia|]. split; [lia|]. split; [lia|].
    split; [intros j Hj; apply mem_single_iff; auto|intros s' j; apply mem_single_iff].
  - destruct (lookup_sig G s0 p) as [f0|] eqn:Lk; [|discriminate]. destruct (negb b); [discriminate|].
    apply bind_ok in H. destruct H as (vl & Hl & H). apply bind_ok in H. destruct H as (vh & Hh & H).
    destruct (valid_range _ _ _) eqn:V; [|discriminate]. injection H as <- <- <- <- <-.
    destruct (W _ _ _ Lk) as [Hw Hfl]. unfold valid_range in V.
    split; [lia|]. split; [lia|]. split; [lia|].
    destruct (slice_fp_cases G L s0 p elo ehi f0 Lk) as [[-> ->]|(l & h & SL & SH & _ & -> & ->)].
    + split; [intros j Hj; apply mem_single_iff; lia|intros s' j Hm; discriminate Hm].
    + rewrite (static_int_sound G L st elo HL l SL) in Hl. rewrite (static_int_sound G L st ehi HL h SH) in Hh.
      injection Hl as <-. injection Hh as <-. cbn [value_int].
      split; [intros j Hj; apply mem_single_iff; auto|intros s' j; apply mem_single_iff].
  - destruct (lookup_sig G s0 p) as [f0|] eqn:Lk; [|discriminate]. destruct (negb b); [discriminate|].
    apply bind_ok in H. destruct H as (vi & Hi & H).
    destruct (_ && _) eqn:V; [|discriminate]. injection H as <- <- <- <- <-.
    destruct (W _ _ _ Lk) as [Hw Hfl].
    split; [lia|]. split; [lia|]. split; [lia|].
    destruct (index_fp_cases G L s0 p ix f0 Lk) as [[-> ->]|(k & SI & _ & -> & ->)].
    + split; [intros j Hj; apply mem_single_iff; lia|intros s' j Hm; discriminate Hm].
    + rewrite (static_int_sound G L st ix HL k SI) in Hi. injection Hi as <-. cbn [value_int].
      split; [intros j Hj; apply mem_single_iff; lia|intros s' j Hm; apply mem_single_iff in Hm; lia].
Qed.

Lemma resolve_tmp G st l e b i v : wf_decls G -> st_ok st -> resolve G st l e b = Ok (ATmp i v) ->
  l = LTmp i /\ value_wf v.
Proof.
  intros W S H. destruct (resolve_cases G st l e b _ H) as [(k & x & -> & Hx & [= <- <-])|([[[[s f] lo] hi] r] & _ & Hs)].
  - split; [reflexivity|]. eapply eval_wf; eauto.
  - apply store_inv in Hs. destruct Hs as (_ & x & u & _ & _ & [=]).
Qed.

(* a resolved signal assignment replaces bits [lo,hi) of s by a value of that width; the kind of assignment is kept *)
Lemma resolve_write G st L l e b b' s lo hi w : wf_decls G -> st_ok st -> lenv_ok L st ->
  resolve G st l e b = Ok (AWrite b' s lo hi w) ->
  b' = b /\ 0 <= lo < hi /\ 0 <= w < 2 ^ (hi - lo) /\
  (forall j, lo <= j < hi -> mem_fp (writes_lhs G L l) (s, j) = true) /\
  (forall s' j, mem_fp (must_lhs G L l) (s', j) = true -> s' = s /\ lo <= j < hi).
Proof.
  intros W S HL H. destruct (resolve_cases G st l e b _ H) as [(k & x & _ & _ & [=])|([[[[s0 f] l0] h0] r] & Ht & Hs)].
  apply store_inv in Hs. destruct Hs as (-> & v & u & Hv & Hu & [= -> -> -> -> ->]).
  destruct (target_spec G st L l b s0 f l0 h0 false W HL Ht) as (Hf & Hlh & Hh & Hwr & Hmust).
  pose proof (store_range G st e v (h0 - l0) u W S Hv ltac:(lia) Hu) as Ru.
  replace (flo f + h0 - (flo f + l0)) with (h0 - l0) by lia.
  split; [reflexivity|]. split; [lia|]. split; [exact Ru|]. split; [exact Hwr|exact Hmust].
Qed.

Definition no_pending (st : state) : Prop := forall s, nxtv st s = None.

(* bits outside Wr still have the value they had in st0 (also in the pending <<= values) *)
Definition unchanged_outside (Wr : bit -> bool) (st0 st : state) : Prop :=
  forall s j, Wr (s, j) = false ->
    Z.testbit (sigv st s) j = Z.testbit (sigv st0 s) j /\
    (forall v, nxtv st s = Some v -> Z.testbit v j = Z.testbit (sigv st0 s) j).

(* pending <<= values of two states: for each signal both absent, or both present and equal on the bits of P *)
Definition nxt_agree (P : bit -> bool) (st1 st2 : state) : Prop :=
  forall s, match nxtv st1 s, nxtv st2 s with
            | None, None => True
            | Some a, Some b => forall j, P (s, j) = true -> Z.testbit a j = Z.testbit b j
            | _, _ => False
            end.
Definition rel (P : bit -> bool) (st1 st2 : state) : Prop :=
  sig_agree P st1 st2 /\ nxt_agree P st1 st2 /\ loc_eq st1 st2.

Lemma apply_loopv st a : loopv (apply_action st a) = loopv st.
Proof. destruct a as [i v|b s lo hi w]; [reflexivity|]. destruct b; reflexivity. Qed.

Lemma apply_nxtv st s lo hi w : nxtv (apply_action st (AWrite true s lo hi w)) = nxtv st.
Proof. reflexivity. Qed.

Lemma apply_st_ok st a : st_ok st -> (forall i v, a = ATmp i v -> value_wf v) -> st_ok (apply_action st a).
Proof.
  intros S Ha. destruct a as [i v|b s lo hi w].
  - intros k x. cbn [apply_action set_tmp tmpv]. unfold upd. destruct (Nat.eqb k i).
    + intros [= <-]. eapply Ha. reflexivity.
    + apply S.
  - destruct b; exact S.
Qed.

Lemma apply_unchanged_outside Wr st0 st a : unchanged_outside Wr st0 st ->
  (forall b s lo hi w, a = AWrite b s lo hi w ->
     0 <= lo <= hi /\ 0 <= w < 2 ^ (hi - lo) /\ forall j, lo <= j < hi -> Wr (s, j) = true) ->
  unchanged_outside Wr st0 (apply_action st a).
Proof.
  intros HI Ha. destruct a as [i v|b s lo hi w]; [exact HI|].
  destruct (Ha b s lo hi w eq_refl) as (Hlh & Hw & Hin).
  assert (K : forall j, Wr (s, j) = false -> Z.testbit (splice (sigv st s) lo hi w) j = Z.testbit (sigv st0 s) j).
  { intros j Hj. rewrite splice_bit by lia.
    destruct ((lo <=? j) && (j <? hi)) eqn:B; [rewrite Hin in Hj by lia; discriminate|]. exact (proj1 (HI s j Hj)). }
  intros s' j Hj. destruct b; cbn [apply_action write_root set_sig set_nxt sigv nxtv]; unfold upd.
  - destruct (Nat.eqb_spec s' s) as [->|Hne]; [|exact (HI s' j Hj)].
    split; [apply K; exact Hj|exact (proj2 (HI s j Hj))].
  - destruct (Nat.eqb_spec s' s) as [->|Hne]; [|exact (HI s' j Hj)].
    split; [exact (proj1 (HI s j Hj))|]. intros v [= <-]. apply K. exact Hj.
Qed.

Section LoopExec.
  Variables (G : decls) (id : nat) (step : Z) (body : list stmt).
  Fixpoint loop_exec (n : nat) (i : Z) (st : state) : res state :=
    match n with
    | O => Ok st
    | S n' => bind (exec_block G body (set_loop st id i)) (loop_exec n' (i + step))
    end.
End LoopExec.

Lemma exec_for G id lo hi step body st :
  exec G (SFor id lo hi step body) st = loop_exec G id step body (loop_count lo hi step) lo st.
Proof. reflexivity. Qed.
Lemma exec_if G lbl c t f st :
  exec G (SIf lbl c t f) st =
  bind (eval G st c) (fun vc => exec_block G (if truthy vc then t else f)
                                  (add_evs st (map (fun p => (lbl, fst p, snd p)) (probes G st 0 c)))).
Proof. reflexivity. Qed.
Lemma exec_block_cons G x r st : exec_block G (x :: r) st = bind (exec G x st) (exec_block G r).
Proof. reflexivity. Qed.

Lemma fp_list_cons f x r L : fp_list f (x :: r) L = f x L ++ fp_list f r (kill (loop_ids_s x) L).
Proof. reflexivity. Qed.
Lemma writes_assign G lbl l e b L : writes_s G (SAssign lbl l e b) L = writes_lhs G L l.
Proof. reflexivity. Qed.
Lemma writes_if G lbl c t f L : writes_s G (SIf lbl c t f) L = fp_list (writes_s G) t L ++ fp_list (writes_s G) f L.
Proof. reflexivity. Qed.
Lemma writes_for G id lo hi step body L :
  writes_s G (SFor id lo hi step body) L =
  flat_map (fun i => fp_list (writes_s G) body ((id, i) :: kill (id :: loop_ids_l body) L))
           (iter_vals (loop_count lo hi step) lo step).
Proof. reflexivity. Qed.
Lemma reads_assign G lbl l e b L : reads_s G (SAssign lbl l e b) L = reads_lhs G L l ++ reads_e G L e.
Proof. reflexivity. Qed.
Lemma reads_if G lbl c t f L :
  reads_s G (SIf lbl c t f) L = reads_e G L c ++ fp_list (reads_s G) t L ++ fp_list (reads_s G) f L.
Proof. reflexivity. Qed.
Lemma reads_for G id lo hi step body L :
  reads_s G (SFor id lo hi step body) L =
  flat_map (fun i => fp_list (reads_s G) body ((id, i) :: kill (id :: loop_ids_l body) L))
           (iter_vals (loop_count lo hi step) lo step).
Proof. reflexivity. Qed.
Lemma loop_ids_if lbl c t f : loop_ids_s (SIf lbl c t f) = loop_ids_l t ++ loop_ids_l f.
Proof. reflexivity. Qed.
Lemma loop_ids_for id lo hi step body : loop_ids_s (SFor id lo hi step body) = id :: loop_ids_l body.
Proof. reflexivity. Qed.

Lemma lookup_kill ids L j z : lookup_l (kill ids L) j = Some z -> ~ In j ids /\ lookup_l L j = Some z.
Proof.
  unfold kill. induction L as [|[k y] L IH]; cbn [filter lookup_l fst]; [discriminate|].
  destruct (existsb (Nat.eqb k) ids) eqn:Ex; cbn [negb].
  - intros H. destruct (IH H) as [H1 H2]. split; [exact H1|].
    destruct (Nat.eqb_spec j k) as [->|Hne]; [|exact H2]. exfalso. apply H1.
    apply existsb_exists in Ex. destruct Ex as (x & Hx & Hk). apply Nat.eqb_eq in Hk. subst x. exact Hx.
  - cbn [lookup_l]. destruct (Nat.eqb_spec j k) as [->|Hne]; [|exact IH].
    intros [= <-]. split; [|reflexivity]. intros Hin.
    assert (existsb (Nat.eqb k) ids = true) by (apply existsb_exists; exists k; split; [exact Hin|apply Nat.eqb_refl]).
    congruence.
Qed.

Lemma lenv_ok_kill L ids st st' : lenv_ok L st -> (forall i, ~ In i ids -> loopv st' i = loopv st i) ->
  lenv_ok (kill ids L) st'.
Proof. intros H F i z Hi. apply lookup_kill in Hi. destruct Hi as [Hn Hl]. rewrite F by exact Hn. apply H. exact Hl. Qed.

Lemma lenv_ok_bind L id i st : lenv_ok L st -> lenv_ok ((id, i) :: L) (set_loop st id i).
Proof.
  intros H j z. cbn [lookup_l loopv set_loop]. unfold upd. destruct (Nat.eqb j id); [intros [= <-]; reflexivity|apply H].
Qed.

Lemma frame_set_loop st st1 id i ids : (forall j, ~ In j ids -> loopv st1 j = loopv (set_loop st id i) j) ->
  forall j, ~ In j (id :: ids) -> loopv st1 j = loopv st j.
Proof.
  intros F j Hj. rewrite F by (intros Hin; apply Hj; right; exact Hin).
  cbn [loopv set_loop]. unfold upd. destruct (Nat.eqb_spec j id) as [->|Hne]; [|reflexivity].
  exfalso. apply Hj. left. reflexivity.
Qed.

Lemma lenv_ok_frame L ids st st1 : lenv_ok L st -> (forall j z, lookup_l L j = Some z -> ~ In j ids) ->
  (forall j, ~ In j ids -> loopv st1 j = loopv st j) -> lenv_ok L st1.
Proof. intros HL HK F j z Hj. rewrite F by (eapply HK; eauto). apply HL. exact Hj. Qed.

Lemma lenv_ok_nil st : lenv_ok [] st.
Proof. intros i z H. discriminate. Qed.

(* what a completed run from st to st' keeps, when it may rebind the loop variables ids, has the write footprint F
   and (if blocking) assigns signals with @= only *)
Definition keeps (ids : list nat) (F : fp) (blocking : bool) (st st' : state) : Prop :=
  st_ok st' /\ (forall i, ~ In i ids -> loopv st' i = loopv st i) /\
  (forall Wr st0, sub F Wr -> unchanged_outside Wr st0 st -> unchanged_outside Wr st0 st') /\
  (blocking = true -> no_pending st -> no_pending st').

Lemma keeps_refl ids F b st : st_ok st -> keeps ids F b st st.
Proof. intros S. split; [exact S|]. split; [reflexivity|]. split; auto. Qed.

Lemma keeps_trans {ids1 ids2 F1 F2 b1 b2 st st1 st2} :
  keeps ids1 F1 b1 st st1 -> keeps ids2 F2 b2 st1 st2 -> keeps (ids1 ++ ids2) (F1 ++ F2) (b1 && b2) st st2.
Proof.
  intros (_ & L1 & I1 & N1) (S2 & L2 & I2 & N2). split; [exact S2|]. split; [|split].
  - intros i Hi. rewrite L2, L1; [reflexivity| |]; intros Hin; apply Hi; apply in_or_app; auto.
  - intros Wr st0 Sb HI. apply sub_app in Sb. destruct Sb as [Sb1 Sb2]. eauto.
  - intros B N. apply andb_prop in B. destruct B as [B1 B2]. auto.
Qed.

Lemma keeps_mono {ids ids' F F'} {b b' : bool} {st st'} : incl ids ids' ->
  (forall v, mem_fp F v = true -> mem_fp F' v = true) -> (b' = true -> b = true) ->
  keeps ids F b st st' -> keeps ids' F' b' st st'.
Proof.
  intros Hi Hf Hb (S & L & I & N). split; [exact S|]. split; [|split].
  - intros i Hn. apply L. intros Hin. apply Hn. apply Hi. exact Hin.
  - intros Wr st0 Sb. apply I. intros v Hv. apply Sb. apply Hf. exact Hv.
  - intros B. apply N. apply Hb. exact B.
Qed.

Section OneRun.
  Variable G : decls.
  Hypothesis W : wf_decls G.

  Definition keeps_s (s : stmt) : Prop :=
    forall L st st', st_ok st -> lenv_ok L st -> exec G s st = Ok st' ->
      keeps (loop_ids_s s) (writes_s G s L) (assigns_ok_s true s) st st'.
  Definition keeps_l (l : list stmt) : Prop :=
    forall L st st', st_ok st -> lenv_ok L st -> exec_block G l st = Ok st' ->
      keeps (loop_ids_l l) (fp_list (writes_s G) l L) (forallb (assigns_ok_s true) l) st st'.

  Lemma keeps_list l : Forall keeps_s l -> keeps_l l.
  Proof.
    induction 1 as [|x r Hx Hr IH]; intros L st st' S HL Hex.
    - injection Hex as <-. apply keeps_refl. exact S.
    - rewrite exec_block_cons in Hex. apply bind_ok in Hex. destruct Hex as (st1 & H1 & H2).
      pose proof (Hx L st st1 S HL H1) as K1.
      exact (keeps_trans K1 (IH (kill (loop_ids_s x) L) st1 st' (proj1 K1)
                                (lenv_ok_kill L _ st st1 HL (proj1 (proj2 K1))) H2)).
  Qed.

  Lemma keeps_loop id step body (L1 : lenv) : keeps_l body ->
    (forall j z, lookup_l L1 j = Some z -> ~ In j (id :: loop_ids_l body)) ->
    forall n i st st', st_ok st -> lenv_ok L1 st -> loop_exec G id step body n i st = Ok st' ->
      keeps (id :: loop_ids_l body) (flat_map (fun k => fp_list (writes_s G) body ((id, k) :: L1)) (iter_vals n i step))
            (forallb (assigns_ok_s true) body) st st'.
  Proof.
    intros HB HK. induction n as [|n IH]; intros i st st' S HL Hex; cbn [loop_exec] in Hex.
    - injection Hex as <-. apply keeps_refl. exact S.
    - apply bind_ok in Hex. destruct Hex as (st1 & H1 & H2).
      assert (K1 : keeps (id :: loop_ids_l body) (fp_list (writes_s G) body ((id, i) :: L1))
                         (forallb (assigns_ok_s true) body) st st1).
      { destruct (HB ((id, i) :: L1) (set_loop st id i) st1 S (lenv_ok_bind L1 id i st HL) H1) as (S1 & F1 & IN1).
        split; [exact S1|]. split; [exact (frame_set_loop st st1 id i _ F1)|exact IN1]. }
      pose proof (lenv_ok_frame L1 _ st st1 HL HK (proj1 (proj2 K1))) as HL1.
      refine (keeps_mono _ _ _ (keeps_trans K1 (IH (i + step) st1 st' (proj1 K1) HL1 H2))).
      + intros j Hj. apply in_app_or in Hj. tauto.
      + auto.
      + intros B. rewrite B. reflexivity.
  Qed.

  Lemma keeps_stmt s : keeps_s s.
  Proof.
    induction s using stmt_ind'; intros L st st' S HL Hex.
    - cbn [exec] in Hex. rewrite exec_assign_resolve in Hex by assumption.
      apply bind_ok in Hex. destruct Hex as (a & Ha & Hex). injection Hex as <-.
      split; [|split; [|split]].
      + apply apply_st_ok; [exact S|]. intros i v ->. exact (proj2 (resolve_tmp G st l e b i v W S Ha)).
      + intros i _. rewrite apply_loopv. reflexivity.
      + intros Wr st0 Sb HI. apply apply_unchanged_outside; [exact HI|]. intros b' s lo hi w ->.
        destruct (resolve_write G st L l e b b' s lo hi w W S HL Ha) as (_ & H1 & H2 & H3 & _).
        split; [lia|]. split; [exact H2|]. intros j Hj. apply Sb. apply H3. exact Hj.
      + (* assigns_ok_s says that a signal target is written with @=, and @= leaves nxtv alone *)
        intros B N s. destruct a as [i v|b' s0 lo hi w]; [apply N|].
        destruct (resolve_write G st L l e b b' s0 lo hi w W S HL Ha) as (-> & _).
        destruct l as [s1 p|s1 p elo ehi|s1 p ix|k]; cbn [assigns_ok_s] in B;
          [apply Bool.eqb_prop in B; subst b; rewrite apply_nxtv; apply N..|].
        cbn [resolve] in Ha. apply bind_ok in Ha. destruct Ha as (x & _ & [=]).
    - rewrite exec_if in Hex. apply bind_ok in Hex. destruct Hex as (vc & Hc & Hex).
      rewrite writes_if, loop_ids_if. destruct (truthy vc).
      + refine (keeps_mono _ _ _ (keeps_list t H L (add_evs st _) st' S HL Hex)).
        * apply incl_appl, incl_refl.
        * intros v Hv. rewrite mem_fp_app, Hv. reflexivity.
        * intros B. apply andb_prop in B. tauto.
      + refine (keeps_mono _ _ _ (keeps_list f H0 L (add_evs st _) st' S HL Hex)).
        * apply incl_appr, incl_refl.
        * intros v Hv. rewrite mem_fp_app, Hv. apply orb_true_r.
        * intros B. apply andb_prop in B. tauto.
    - rewrite exec_for in Hex.
      apply (keeps_loop id step body (kill (id :: loop_ids_l body) L) (keeps_list body H)); auto.
      + intros j z Hj. apply lookup_kill in Hj. tauto.
      + apply (lenv_ok_kill L _ st st HL). reflexivity.
  Qed.

  Lemma keeps_block b : keeps_l b.
  Proof. apply keeps_list. apply Forall_forall. intros s _. apply keeps_stmt. Qed.
End OneRun.

Lemma exec_block_pres G l st st' : wf_decls G -> st_ok st -> exec_block G l st = Ok st' ->
  st_ok st' /\ (forall i, ~ In i (loop_ids_l l) -> loopv st' i = loopv st i).
Proof. intros W S H. destruct (keeps_block G W l [] st st' S (lenv_ok_nil st) H) as (S1 & F1 & _). auto. Qed.
Lemma exec_pres G s st st' : wf_decls G -> st_ok st -> exec G s st = Ok st' ->
  st_ok st' /\ (forall i, ~ In i (loop_ids_s s) -> loopv st' i = loopv st i).
Proof. intros W S H. destruct (keeps_stmt G W s [] st st' S (lenv_ok_nil st) H) as (S1 & F1 & _). auto. Qed.

Lemma exec_block_no_pending G b st st' : wf_decls G -> st_ok st -> assigns_ok true b = true ->
  exec_block G b st = Ok st' -> no_pending st -> no_pending st'.
Proof. intros W S A H. exact (proj2 (proj2 (proj2 (keeps_block G W b [] st st' S (lenv_ok_nil st) H))) A). Qed.

Definition block_rd (G : decls) (b : list stmt) : bit -> bool := mem_fp (reads_d G b).
Definition block_wr (G : decls) (b : list stmt) : bit -> bool := mem_fp (writes_d G b).

(* A block that starts with no pending <<= value changes only bits inside writes_d:
   every other bit of every signal — also as seen after the clock edge (final_sig) — keeps its value. *)
Theorem exec_frame G b st st' : wf_declsb G = true -> st_ok st -> no_pending st ->
  exec_block G b st = Ok st' ->
  forall s j, block_wr G b (s, j) = false ->
    Z.testbit (sigv st' s) j = Z.testbit (sigv st s) j /\ Z.testbit (final_sig st' s) j = Z.testbit (sigv st s) j.
Proof.
  intros Wb S N H s j Hj. apply wf_declsb_sound in Wb.
  assert (I0 : unchanged_outside (block_wr G b) st st).
  { intros s' j' _. split; [reflexivity|]. intros v Hv. rewrite N in Hv. discriminate. }
  destruct (keeps_block G Wb b [] st st' S (lenv_ok_nil st) H) as (_ & _ & I1 & _).
  destruct (I1 (block_wr G b) st (fun v Hv => Hv) I0 s j Hj) as [H1 H2]. split; [exact H1|].
  unfold final_sig. destruct (nxtv st' s) as [v|] eqn:E; [apply H2; reflexivity|exact H1].
Qed.

Lemma covers_sound D C : covers D C = true -> forall v, mem_fp C v = true -> mem_fp D v = true.
Proof.
  unfold covers. intros H v Hv. rewrite forallb_forall in H.
  unfold mem_fp in Hv. apply existsb_exists in Hv. destruct Hv as (a & Ha & Hin).
  exact (ivl_forall (mem_fp D) a (H a Ha) v Hin).
Qed.

Fixpoint pack_bits (e : Z -> bool) (n : nat) : Z :=
  match n with
  | O => 0
  | S k => if e (Z.of_nat k) then Z.setbit (pack_bits e k) (Z.of_nat k) else pack_bits e k
  end.

Lemma pack_bits_spec e n j : Z.testbit (pack_bits e n) j = if (0 <=? j) && (j <? Z.of_nat n) then e j else false.
Proof.
  induction n as [|k IH]; cbn [pack_bits].
  - rewrite Z.bits_0. replace ((0 <=? j) && (j <? Z.of_nat 0)) with false by lia. reflexivity.
  - assert (K : Z.testbit (if e (Z.of_nat k) then Z.setbit (pack_bits e k) (Z.of_nat k) else pack_bits e k) j
                = (Z.of_nat k =? j) && e (Z.of_nat k) || Z.testbit (pack_bits e k) j).
    { destruct (e (Z.of_nat k)); [rewrite Z.setbit_eqb by lia; rewrite andb_true_r|rewrite andb_false_r]; reflexivity. }
    rewrite K, IH. destruct (Z.eqb_spec (Z.of_nat k) j) as [<-|Hne]; cbn [andb orb].
    + replace ((0 <=? Z.of_nat k) && (Z.of_nat k <? Z.of_nat k)) with false by lia.
      replace ((0 <=? Z.of_nat k) && (Z.of_nat k <? Z.of_nat (S k))) with true by lia. apply orb_false_r.
    + replace ((0 <=? j) && (j <? Z.of_nat (S k))) with ((0 <=? j) && (j <? Z.of_nat k)) by lia. reflexivity.
Qed.

Section Package.
  Variable G : decls.

  (* the packed simulator state described by a bit environment (bits of signal s: 0 .. sig_hi G s - 1) *)
  Definition state_of (e : env bit bool) : state :=
    {| sigv := fun s => pack_bits (fun k => e (s, k)) (Z.to_nat (sig_hi G s));
       nxtv := fun _ => None; tmpv := fun _ => None; loopv := fun _ => None; evs := [] |}.

  Definition in_sig (v : bit) : bool := (0 <=? snd v) && (snd v <? sig_hi G (fst v)).

  (* a block as a transformer of bit environments; an exception leaves the environment as it is
     (the simulation stops; FlowSound.exec_dep shows that the exception itself depends only on the read set and on
     the previous values of the written bits).
     For an update_ff block the result is the state after the clock edge (final_sig). *)
  Definition rtl_run (b : list stmt) (e : env bit bool) : env bit bool :=
    fun v => match exec_block G b (state_of e) with
             | Ok st' => if in_sig v then Z.testbit (final_sig st' (fst v)) (snd v) else e v
             | Err _ => e v
             end.

  Definition rtl_blk (b : list stmt) : blk bit bool := mkBlk (block_rd G b) (block_wr G b) (rtl_run b).

  Lemma state_of_bit e s j : Z.testbit (sigv (state_of e) s) j = if in_sig (s, j) then e (s, j) else false.
  Proof.
    cbn [sigv state_of]. rewrite pack_bits_spec. unfold in_sig. cbn [fst snd].
    destruct (Z.leb_spec 0 j); cbn [andb]; [|reflexivity].
    destruct (Z.ltb_spec j (Z.of_nat (Z.to_nat (sig_hi G s)))); destruct (Z.ltb_spec j (sig_hi G s)); try reflexivity; lia.
  Qed.

  Lemma state_of_ok e : st_ok (state_of e).
  Proof. intros i v H. discriminate. Qed.

  Hypothesis Wb : wf_declsb G = true.

  Theorem rtl_frame b : frame (rtl_blk b).
  Proof.
    intros e [s j] Hv. cbn [run rtl_blk wr] in *. unfold rtl_run.
    destruct (exec_block G b (state_of e)) as [st'|x] eqn:Ex; [|reflexivity].
    destruct (in_sig (s, j)) eqn:B; [|reflexivity]. cbn [fst snd].
    destruct (exec_frame G b (state_of e) st' Wb (state_of_ok e) (fun _ => eq_refl) Ex s j Hv) as [_ H].
    rewrite H, state_of_bit, B. reflexivity.
  Qed.

End Package.

Section SShapeInd.
  Variable P : sshape -> Prop.
  Hypothesis HB : forall w, P (ShBits w).
  Hypothesis HS : forall fs, Forall P fs -> P (ShStruct fs).
  Fixpoint sshape_ind' (t : sshape) : P t :=
    match t with
    | ShBits w => HB w
    | ShStruct fs =>
        HS fs ((fix go (l : list sshape) : Forall P l :=
                  match l with [] => Forall_nil P | x :: r => Forall_cons x (sshape_ind' x) (go r) end) fs)
    end.
End SShapeInd.

(* named copies of the local fixpoints of swidth, wf_shape and shape_paths in Footprint.v, equal to them by conversion *)
Fixpoint swidths (l : list sshape) : Z := match l with [] => 0 | f :: r => swidth f + swidths r end.
Fixpoint wf_fields (l : list sshape) : bool := match l with [] => true | f :: r => wf_shape f && wf_fields r end.
Fixpoint fields_paths (l : list sshape) (i : nat) (top : Z) : list (list nat * finfo) :=
  match l with
  | [] => []
  | f :: r => map (fun pf => (i :: fst pf, snd pf)) (shape_paths f (top - swidth f)) ++ fields_paths r (S i) (top - swidth f)
  end.
Lemma swidth_struct fs : swidth (ShStruct fs) = swidths fs.
Proof. reflexivity. Qed.
Lemma wf_struct fs : wf_shape (ShStruct fs) = match fs with [] => false | _ => true end && wf_fields fs.
Proof. reflexivity. Qed.
Lemma shape_paths_struct fs lo :
  shape_paths (ShStruct fs) lo =
  ([], {| fw := swidths fs; flo := lo; fstruct := Some 0%nat |}) :: fields_paths fs 0%nat (lo + swidths fs).
Proof. reflexivity. Qed.

Definition inside (lo hi : Z) (pf : list nat * finfo) : Prop :=
  0 < fw (snd pf) /\ lo <= flo (snd pf) /\ flo (snd pf) + fw (snd pf) <= hi.

Lemma inside_weaken lo hi lo' hi' l : lo' <= lo -> hi <= hi' -> Forall (inside lo hi) l -> Forall (inside lo' hi') l.
Proof. intros H1 H2 H. eapply Forall_impl; [|exact H]. unfold inside. intros a. lia. Qed.

Lemma shape_paths_inside t : wf_shape t = true ->
  0 < swidth t /\ forall lo, Forall (inside lo (lo + swidth t)) (shape_paths t lo).
Proof.
  induction t using sshape_ind'; intros Wt.
  - cbn in Wt. cbn [swidth shape_paths]. split; [lia|]. intros lo. constructor; [|constructor].
    unfold inside. cbn [snd fw flo]. lia.
  - rewrite wf_struct in Wt. apply andb_prop in Wt. destruct Wt as [Hne Wf].
    assert (K : forall i top, Forall (inside (top - swidths fs) top) (fields_paths fs i top) /\ 0 <= swidths fs /\
                              (fs <> [] -> 0 < swidths fs)).
    { (* field by field: the paths of a field lie inside its slot below top, and the widths add up *)
      clear Hne. induction H as [|f r Hf Hr IH]; intros i top.
      - cbn. split; [constructor|]. split; [lia|]. congruence.
      - cbn [wf_fields] in Wf. apply andb_prop in Wf. destruct Wf as [W1 W2].
        destruct (Hf W1) as [Pf Sf]. destruct (IH W2 (S i) (top - swidth f)) as (Fr & Nr & _).
        cbn [fields_paths swidths]. split; [|split; [lia|intros _; lia]].
        apply Forall_app. split.
        + apply Forall_map. specialize (Sf (top - swidth f)).
          eapply Forall_impl; [|exact Sf]. unfold inside. cbn [snd]. intros a. lia.
        + eapply inside_weaken; [| |exact Fr]; lia. }
    destruct (K 0%nat 0) as (_ & N0 & P0).
    assert (Pos : 0 < swidths fs) by (apply P0; destruct fs; [discriminate|congruence]).
    rewrite swidth_struct. split; [exact Pos|]. intros lo. rewrite shape_paths_struct.
    constructor.
    + unfold inside. cbn [snd fw flo]. lia.
    + destruct (K 0%nat (lo + swidths fs)) as (F & _ & _).
      eapply inside_weaken; [| |exact F]; lia.
Qed.

Lemma wf_declsb_Forall G : wf_declsb G = true <-> Forall (fun d => wf_finfo (snd d) = true) G.
Proof. unfold wf_declsb. rewrite forallb_forall, Forall_forall. reflexivity. Qed.

Theorem decls_of_wf T : wf_shapes T = true -> wf_declsb (decls_of T) = true.
Proof.
  unfold decls_of, wf_shapes. generalize 0%nat. induction T as [|t r IH]; intros s H; cbn [decls_from].
  - reflexivity.
  - cbn [forallb] in H. apply andb_prop in H. destruct H as [Ht Hr]. apply andb_prop in Ht. destruct Ht as [Wt Lt].
    apply wf_declsb_Forall. apply Forall_app. split; [|apply wf_declsb_Forall; apply IH; exact Hr].
    apply Forall_map. destruct (shape_paths_inside t Wt) as [Pt St].
    eapply Forall_impl; [|exact (St 0)]. unfold inside, wf_finfo. cbn [snd]. intros a. lia.
Qed.

(* a design only SOME of whose blocks are in the language (inl i); the other blocks have an arbitrary semantics R0 i *)
Definition mixed_run (G : decls) (progs : nat -> list stmt) (inl : nat -> bool)
           (R0 : nat -> env bit bool -> env bit bool) (i : nat) : env bit bool -> env bit bool :=
  if inl i then rtl_run G (progs i) else R0 i.
Definition mixed_cover_ok (G : decls) (progs : nat -> list stmt) (inl : nat -> bool) (d : design) : bool :=
  forallb (fun i => negb (inl i) ||
                    (covers (rds d i) (reads_d G (progs i)) && covers (wrs d i) (writes_d G (progs i)))) (ids d).

