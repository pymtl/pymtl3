(* RTL/FlowSound.v — two runs of a block from states that agree on what the block reads give the same outcome, error
   class included.  The general form follows the must-write / exposed-read analysis of RTL/Footprint.v (flow_s):
   agreement is needed only on the EXPOSED reads (reads not preceded, on every path, by a definite write of the same
   bit in the block) and holds afterwards also on every definitely written bit, whatever those bits held before
   (exec_sdep).  Dependence on the plain read footprint (exec_dep), a block of the language as a Sched.Block.blk that
   satisfies frame and dep (rtl_blk_footprints), and Sched.Accept.accepted_schedules_agree with no footprint
   hypothesis left (rtl_mixed_schedules_agree) are corollaries.
   Whole language of RTL/Syntax.v, unbounded nesting.  No axioms. *)
From PV Require Import Base.Prelude.
From PV Require Import RTL.Syntax RTL.SyntaxFacts RTL.Eval Sched.Block Sched.Accept RTL.Footprint RTL.FootprintSound.
Open Scope Z_scope.

(* Both runs complete with related results, or both raise the same error.  out_rel2 P D below is res_rel (rel2 P D)
   written out; the two are convertible, and the proofs use res_rel with its bind rule. *)
Definition res_rel {A B} (R : A -> B -> Prop) (r1 : res A) (r2 : res B) : Prop :=
  match r1, r2 with
  | Ok a, Ok c => R a c
  | Err x, Err y => x = y
  | _, _ => False
  end.

Lemma res_rel_bind {A B A' B'} (R : A -> B -> Prop) {S : A' -> B' -> Prop} {r1 r2 f g} :
  res_rel R r1 r2 -> (forall a c, r1 = Ok a -> R a c -> res_rel S (f a) (g c)) -> res_rel S (bind r1 f) (bind r2 g).
Proof. destruct r1 as [a|x], r2 as [c|y]; cbn; intros H K; [exact (K a c eq_refl H)|contradiction..|exact H]. Qed.

Lemma res_rel_impl {A B} (R S : A -> B -> Prop) r1 r2 : (forall a c, R a c -> S a c) -> res_rel R r1 r2 -> res_rel S r1 r2.
Proof. destruct r1, r2; cbn; auto. Qed.

Lemma nth_map_seq {A} (f : nat -> A) d n s : nth s (map f (seq 0 n)) d = if (s <? n)%nat then f s else d.
Proof.
  destruct (Nat.ltb_spec s n) as [H|H].
  - rewrite nth_indep with (d' := f 0%nat) by (rewrite map_length, seq_length; exact H).
    rewrite map_nth, seq_nth by exact H. reflexivity.
  - apply nth_overflow. rewrite map_length, seq_length. exact H.
Qed.

Lemma mem_fp_inter A B v : mem_fp (fp_inter A B) v = true -> mem_fp A v = true /\ mem_fp B v = true.
Proof.
  unfold fp_inter, mem_fp. intros H. apply existsb_exists in H. destruct H as (u & Hu & Hv).
  apply in_flat_map in Hu. destruct Hu as (a & Ha & Hu). apply in_map_iff in Hu. destruct Hu as (k & <- & Hk).
  apply filter_In in Hk. destruct Hk as [Hk Hb]. apply in_seq in Hk.
  destruct v as [r j]. apply in_ivl_spec in Hv. cbn [iroot ilo ihi fst snd] in Hv. destruct Hv as [-> Hj].
  assert (j = ilo a + Z.of_nat k) as -> by lia.
  split; [|exact Hb]. apply existsb_exists. exists a. split; [exact Ha|]. apply in_ivl_spec. cbn [fst snd]. lia.
Qed.

(* the bits of P together with those of D *)
Definition un (P : bit -> bool) (D : fp) : bit -> bool := fun v => P v || mem_fp D v.
(* the relation between two runs: signals agree on P and on the definitely written bits D;
   pending <<= values agree on P *)
Definition rel2 (P : bit -> bool) (D : fp) (st1 st2 : state) : Prop :=
  sig_agree (un P D) st1 st2 /\ nxt_agree P st1 st2 /\ loc_eq st1 st2.
Definition out_rel2 (P : bit -> bool) (D : fp) (r1 r2 : res state) : Prop :=
  match r1, r2 with
  | Ok a, Ok c => rel2 P D a c
  | Err x, Err y => x = y
  | _, _ => False
  end.
(* every recorded read of a bit that was not yet definitely written is a read of a bit of P *)
Definition xsub (X : xfp) (P : bit -> bool) : Prop :=
  forall F Dx v, In (F, Dx) X -> mem_fp F v = true -> mem_fp Dx v = false -> P v = true.

Lemma xsub_app X Y P : xsub (X ++ Y) P <-> xsub X P /\ xsub Y P.
Proof.
  unfold xsub. split.
  - intros H. split; intros F Dx v Hin; apply H; apply in_or_app; auto.
  - intros [H1 H2] F Dx v Hin. apply in_app_or in Hin. destruct Hin; eauto.
Qed.

Lemma xsub_un F D P : xsub [(F, D)] P -> sub F (un P D).
Proof.
  intros H v Hv. unfold un. destruct (mem_fp D v) eqn:Ed; [apply orb_true_r|].
  rewrite (H F D v (or_introl eq_refl) Hv Ed). reflexivity.
Qed.

Lemma sub_xsub F D P : sub F P -> xsub [(F, D)] P.
Proof. intros H F' Dx v [[= <- <-]|[]] Hv _. exact (H v Hv). Qed.

Lemma rel2_nil P a c : rel2 P [] a c <-> rel P a c.
Proof.
  assert (K : sig_agree (un P []) a c <-> sig_agree P a c).
  { unfold sig_agree, un. cbn [mem_fp existsb].
    split; intros A s j Hq; apply A; [rewrite orb_false_r|rewrite orb_false_r in Hq]; exact Hq. }
  unfold rel2, rel. rewrite K. reflexivity.
Qed.

(* two states that hold nothing but signal values (init_state, state_of) are related as soon as the signals agree *)
Lemma rel_fresh P (f1 f2 : nat -> Z) : (forall s j, P (s, j) = true -> Z.testbit (f1 s) j = Z.testbit (f2 s) j) ->
  rel P {| sigv := f1; nxtv := fun _ => None; tmpv := fun _ => None; loopv := fun _ => None; evs := [] |}
        {| sigv := f2; nxtv := fun _ => None; tmpv := fun _ => None; loopv := fun _ => None; evs := [] |}.
Proof. intros A. split; [exact A|]. split; [intros s; exact I|split; intros i; reflexivity]. Qed.

Lemma state_of_rel G P e1 e2 : (forall v, P v = true -> e1 v = e2 v) -> rel P (state_of G e1) (state_of G e2).
Proof.
  intros Hag. apply (rel_fresh P (sigv (state_of G e1)) (sigv (state_of G e2))). intros s j Hp.
  rewrite !state_of_bit. destruct (in_sig G (s, j)); [apply Hag; exact Hp|reflexivity].
Qed.

Lemma rel2_weaken P D D' st1 st2 : (forall v, mem_fp D' v = true -> mem_fp D v = true) ->
  rel2 P D st1 st2 -> rel2 P D' st1 st2.
Proof.
  intros H (A & N & E). split; [|split; assumption]. intros s j Hq. apply A. unfold un in *.
  apply orb_prop in Hq. destruct Hq as [Hq|Hq]; [rewrite Hq; reflexivity|]. rewrite (H _ Hq). apply orb_true_r.
Qed.

(* M, the bits newly claimed as definitely written, is empty unless a is a blocking write, and then lies inside the
   range that a replaces *)
Lemma apply_rel2 P D st1 st2 a M : rel2 P D st1 st2 ->
  (forall b s lo hi w, a = AWrite b s lo hi w -> 0 <= lo <= hi /\ 0 <= w < 2 ^ (hi - lo)) ->
  (forall s' j, mem_fp M (s', j) = true ->
     match a with AWrite true s lo hi _ => s' = s /\ lo <= j < hi | _ => False end) ->
  rel2 P (M ++ D) (apply_action st1 a) (apply_action st2 a).
Proof.
  intros (A & N & E) Ha Hm.
  (* a bit of M ++ D that the action does not replace is a bit of D *)
  assert (Out : forall s' j, un P (M ++ D) (s', j) = true ->
            match a with AWrite true s lo hi _ => s' = s /\ lo <= j < hi | _ => False end \/
            Z.testbit (sigv st1 s') j = Z.testbit (sigv st2 s') j).
  { intros s' j Hq. unfold un in Hq. rewrite mem_fp_app in Hq.
    destruct (mem_fp M (s', j)) eqn:Em; [left; exact (Hm s' j Em)|right; exact (A s' j Hq)]. }
  destruct a as [i v|b s lo hi w].
  - split; [|split; [exact N|]].
    + intros s j Hq. destruct (Out s j Hq) as [[]|Hd]. exact Hd.
    + destruct E as [E1 E2]. split; [|exact E2].
      intros k. cbn [apply_action set_tmp tmpv]. unfold upd. destruct (Nat.eqb k i); [reflexivity|apply E1].
  - destruct (Ha b s lo hi w eq_refl) as (Hlh & Hw).
    destruct b; cbn [apply_action write_root set_sig set_nxt].
    + split; [|split; [exact N|exact E]].
      intros s' j Hq. cbn [sigv set_sig]. unfold upd.
      destruct (Nat.eqb_spec s' s) as [->|Hne]; [|destruct (Out s' j Hq) as [[]|Hd]; [contradiction|exact Hd]].
      rewrite !splice_bit by lia. destruct ((lo <=? j) && (j <? hi)) eqn:B; [reflexivity|].
      destruct (Out s j Hq) as [[_ Hj]|Hd]; [lia|exact Hd].
    + split; [|split; [|exact E]].
      * intros s' j Hq. destruct (Out s' j Hq) as [[]|Hd]. exact Hd.
      * intros s'. cbn [nxtv set_nxt]. unfold upd. destruct (Nat.eqb_spec s' s) as [->|Hne]; [|apply N].
        intros j Hj. rewrite !splice_bit by lia. destruct ((lo <=? j) && (j <? hi)); [reflexivity|].
        apply A. unfold un. rewrite Hj. reflexivity.
Qed.

Lemma rel2_set_loop P D st1 st2 id i : rel2 P D st1 st2 -> rel2 P D (set_loop st1 id i) (set_loop st2 id i).
Proof.
  intros (A & N & E1 & E2). split; [exact A|]. split; [exact N|]. split; [exact E1|].
  intros j. cbn [loopv set_loop]. unfold upd. destruct (Nat.eqb j id); [reflexivity|apply E2].
Qed.

(* equations for the nested fixpoints of flow_s, so that cbn never exposes a local fix *)
Lemma flow_assign G lbl l e b L D :
  flow_s G (SAssign lbl l e b) L D = ([(reads_lhs G L l ++ reads_e G L e, D)], if b then must_lhs G L l ++ D else D).
Proof. reflexivity. Qed.
Lemma flow_if G lbl c t f L D :
  flow_s G (SIf lbl c t f) L D =
  ((reads_e G L c, D) :: fst (flow_list (flow_s G) t L D) ++ fst (flow_list (flow_s G) f L D),
   fp_inter (snd (flow_list (flow_s G) t L D)) (snd (flow_list (flow_s G) f L D))).
Proof. reflexivity. Qed.
Lemma flow_for G id lo hi step body L D :
  flow_s G (SFor id lo hi step body) L D =
  flow_iter (fun L' D' => flow_list (flow_s G) body L' D') (fun i => (id, i) :: kill (id :: loop_ids_l body) L)
            (iter_vals (loop_count lo hi step) lo step) D.
Proof. reflexivity. Qed.
Lemma flow_list_cons f x r L D :
  flow_list f (x :: r) L D =
  (fst (f x L D) ++ fst (flow_list f r (kill (loop_ids_s x) L) (snd (f x L D))),
   snd (flow_list f r (kill (loop_ids_s x) L) (snd (f x L D)))).
Proof. reflexivity. Qed.
Lemma flow_iter_cons f mk i r D :
  flow_iter f mk (i :: r) D =
  (fst (f (mk i) D) ++ fst (flow_iter f mk r (snd (f (mk i) D))), snd (flow_iter f mk r (snd (f (mk i) D)))).
Proof. reflexivity. Qed.

Lemma st_ok_eq st1 st2 : loc_eq st1 st2 -> st_ok st1 -> st_ok st2.
Proof. intros [E _] S i v H. rewrite <- E in H. eapply S; eauto. Qed.

Section TwoRuns.
  Variables (G : decls) (P : bit -> bool).
  Hypothesis W : wf_decls G.

  Definition flow_sound_s (s : stmt) : Prop :=
    forall L D st1 st2, st_ok st1 -> lenv_ok L st1 -> rel2 P D st1 st2 -> xsub (fst (flow_s G s L D)) P ->
      res_rel (rel2 P (snd (flow_s G s L D))) (exec G s st1) (exec G s st2).
  Definition flow_sound_l (l : list stmt) : Prop :=
    forall L D st1 st2, st_ok st1 -> lenv_ok L st1 -> rel2 P D st1 st2 -> xsub (fst (flow_list (flow_s G) l L D)) P ->
      res_rel (rel2 P (snd (flow_list (flow_s G) l L D))) (exec_block G l st1) (exec_block G l st2).

  Lemma flow_sound_list l : Forall flow_sound_s l -> flow_sound_l l.
  Proof.
    induction 1 as [|x r Hx Hr IH]; intros L D st1 st2 S HL R Sb.
    - exact R.
    - rewrite !exec_block_cons. rewrite flow_list_cons in *. cbn [fst snd] in *.
      apply xsub_app in Sb. destruct Sb as [Sx Sr].
      apply (res_rel_bind _ (Hx L D st1 st2 S HL R Sx)). intros a c E1 Ox.
      destruct (exec_pres G x st1 a W S E1) as [Sa Fa].
      exact (IH (kill (loop_ids_s x) L) _ a c Sa (lenv_ok_kill L _ st1 a HL Fa) Ox Sr).
  Qed.

  Lemma flow_sound_loop id step body (L1 : lenv) : flow_sound_l body ->
    (forall j z, lookup_l L1 j = Some z -> ~ In j (id :: loop_ids_l body)) ->
    forall n i D st1 st2, st_ok st1 -> lenv_ok L1 st1 -> rel2 P D st1 st2 ->
      xsub (fst (flow_iter (fun L' D' => flow_list (flow_s G) body L' D') (fun k => (id, k) :: L1) (iter_vals n i step) D)) P ->
      res_rel (rel2 P (snd (flow_iter (fun L' D' => flow_list (flow_s G) body L' D') (fun k => (id, k) :: L1) (iter_vals n i step) D)))
              (loop_exec G id step body n i st1) (loop_exec G id step body n i st2).
  Proof.
    intros HB HK. induction n as [|n IH]; intros i D st1 st2 S HL R Sb; cbn [loop_exec iter_vals].
    - exact R.
    - rewrite flow_iter_cons in *. cbn [fst snd] in *. apply xsub_app in Sb. destruct Sb as [S1 S2].
      apply (res_rel_bind _ (HB ((id, i) :: L1) D (set_loop st1 id i) (set_loop st2 id i) S (lenv_ok_bind L1 id i st1 HL)
                                (rel2_set_loop P D st1 st2 id i R) S1)). intros a c E1 Ob.
      destruct (exec_block_pres G body (set_loop st1 id i) a W S E1) as [Sa Fa].
      exact (IH (i + step) _ a c Sa (lenv_ok_frame L1 _ st1 a HL HK (frame_set_loop st1 a id i _ Fa)) Ob S2).
  Qed.

  Lemma flow_sound_stmt s : flow_sound_s s.
  Proof.
    induction s using stmt_ind'; intros L D st1 st2 S HL R Sb.
    - destruct R as (A & N & E). pose proof (st_ok_eq st1 st2 E S) as S2.
      cbn [exec]. rewrite !exec_assign_resolve by assumption. rewrite flow_assign in *. cbn [fst snd] in *.
      rewrite <- (resolve_dep G (un P D) st1 st2 L l e b W A E HL (xsub_un _ _ _ Sb)).
      destruct (resolve G st1 l e b) as [a|x] eqn:Ha; cbn [bind res_rel]; [|reflexivity].
      assert (Hb : forall b' s lo hi w, a = AWrite b' s lo hi w -> 0 <= lo <= hi /\ 0 <= w < 2 ^ (hi - lo)).
      { intros b' s lo hi w ->. destruct (resolve_write G st1 L l e b b' s lo hi w W S HL Ha) as (_ & H1 & H2 & _). split; [lia|exact H2]. }
      destruct b.
      + apply apply_rel2; [exact (conj A (conj N E))|exact Hb|].
        intros s' j Hm. destruct a as [i v|b' s lo hi w].
        * destruct (resolve_tmp G st1 l e true i v W S Ha) as [-> _]. discriminate Hm.
        * destruct (resolve_write G st1 L l e true b' s lo hi w W S HL Ha) as (-> & _ & _ & _ & Hmust). exact (Hmust s' j Hm).
      + change D with ([] ++ D). apply apply_rel2; [exact (conj A (conj N E))|exact Hb|].
        intros s' j Hm. discriminate.
    - rewrite !exec_if. rewrite flow_if in *. cbn [fst snd] in *.
      apply (xsub_app [_]) in Sb. destruct Sb as [Sc Sb]. apply xsub_app in Sb. destruct Sb as [St Sf].
      destruct R as (A & N & E).
      rewrite <- (eval_dep G (un P D) st1 st2 W A E L c HL (xsub_un _ _ _ Sc)).
      destruct (eval G st1 c) as [vc|x]; cbn [bind res_rel]; [|reflexivity].
      destruct (truthy vc).
      + apply res_rel_impl with (R := rel2 P (snd (flow_list (flow_s G) t L D))).
        * intros a c'. apply rel2_weaken. intros v Hv. apply mem_fp_inter in Hv. tauto.
        * apply (flow_sound_list t H L D); [exact S|exact HL|exact (conj A (conj N E))|exact St].
      + apply res_rel_impl with (R := rel2 P (snd (flow_list (flow_s G) f L D))).
        * intros a c'. apply rel2_weaken. intros v Hv. apply mem_fp_inter in Hv. tauto.
        * apply (flow_sound_list f H0 L D); [exact S|exact HL|exact (conj A (conj N E))|exact Sf].
    - rewrite !exec_for. rewrite flow_for in *.
      apply (flow_sound_loop id step body (kill (id :: loop_ids_l body) L) (flow_sound_list body H)); auto.
      + intros j z Hj. apply lookup_kill in Hj. tauto.
      + apply (lenv_ok_kill L _ st1 st1 HL). reflexivity.
  Qed.

  Lemma flow_sound_block b : flow_sound_l b.
  Proof. apply flow_sound_list. apply Forall_forall. intros s _. apply flow_sound_stmt. Qed.

  (* every read recorded by the analysis is a read of the plain footprint *)
  Definition xreads_in_reads_s (s : stmt) : Prop :=
    forall L D, sub (reads_s G s L) P -> xsub (fst (flow_s G s L D)) P.

  Lemma xreads_in_reads_list l : Forall xreads_in_reads_s l ->
    forall L D, sub (fp_list (reads_s G) l L) P -> xsub (fst (flow_list (flow_s G) l L D)) P.
  Proof.
    induction 1 as [|x r Hx Hr IH]; intros L D Sb.
    - intros F Dx v [].
    - rewrite flow_list_cons. cbn [fst]. rewrite fp_list_cons in Sb. apply sub_app in Sb. destruct Sb as [Sx Sr].
      apply xsub_app. split; [apply Hx; exact Sx|apply IH; exact Sr].
  Qed.

  Lemma xreads_in_reads_stmt s : xreads_in_reads_s s.
  Proof.
    induction s using stmt_ind'; intros L D Sb.
    - rewrite flow_assign. apply sub_xsub. exact Sb.
    - rewrite flow_if. cbn [fst]. rewrite reads_if in Sb. apply sub_app in Sb. destruct Sb as [Sc Sb].
      apply sub_app in Sb. destruct Sb as [St Sf]. apply (xsub_app [_]). split; [apply sub_xsub; exact Sc|].
      apply xsub_app. split; apply xreads_in_reads_list; assumption.
    - rewrite flow_for. rewrite reads_for in Sb. revert D.
      induction (iter_vals (loop_count lo hi step) lo step) as [|i r IH]; intros D.
      + intros F Dx v [].
      + rewrite flow_iter_cons. cbn [fst]. cbn [flat_map] in Sb. apply sub_app in Sb. destruct Sb as [S1 S2].
        apply xsub_app. split; [apply (xreads_in_reads_list body H); exact S1|apply IH; exact S2].
  Qed.

  Lemma two_block b st1 st2 : st_ok st1 -> rel P st1 st2 -> sub (reads_d G b) P ->
    res_rel (rel P) (exec_block G b st1) (exec_block G b st2).
  Proof.
    intros S R Sb. apply rel2_nil in R.
    assert (X : xsub (xreads_d G b) P).
    { apply xreads_in_reads_list; [|exact Sb]. apply Forall_forall. intros s _. apply xreads_in_reads_stmt. }
    eapply res_rel_impl; [|exact (flow_sound_block b [] [] st1 st2 S (lenv_ok_nil st1) R X)].
    intros a c R2. apply rel2_nil. eapply rel2_weaken; [|exact R2]. intros v Hv. discriminate Hv.
  Qed.
End TwoRuns.

Lemma xcovers_sound Q X : xcovers Q X = true -> xsub X (mem_fp Q).
Proof.
  unfold xcovers. intros H F Dx v Hin Hf Hd. rewrite forallb_forall in H. specialize (H _ Hin). cbn [fst snd] in H.
  rewrite forallb_forall in H. unfold mem_fp in Hf. apply existsb_exists in Hf. destruct Hf as (a & Ha & Hv).
  pose proof (ivl_forall (fun u => mem_fp Dx u || mem_fp Q u) a (H a Ha) v Hv) as K.
  cbn beta in K. rewrite Hd in K. exact K.
Qed.

(* outcome and definitely written bits are determined by the exposed reads *)
Theorem exec_sdep G b (P : bit -> bool) st1 st2 : wf_declsb G = true -> st_ok st1 ->
  xsub (xreads_d G b) P -> rel2 P [] st1 st2 ->
  out_rel2 P (must_d G b) (exec_block G b st1) (exec_block G b st2).
Proof.
  intros Wb S X R. apply wf_declsb_sound in Wb.
  exact (flow_sound_block G P Wb b [] [] st1 st2 S (lenv_ok_nil st1) R X).
Qed.

Lemma rel_final P a c s j : rel P a c -> P (s, j) = true ->
  Z.testbit (final_sig a s) j = Z.testbit (final_sig c s) j.
Proof.
  intros (A & N & _) Hj. unfold final_sig. specialize (N s).
  destruct (nxtv a s), (nxtv c s); try contradiction; [apply N; exact Hj|apply A; exact Hj].
Qed.

(* Two states that agree on the bits in reads_d and on the bits in writes_d (and have the same
   temporaries / loop variables, e.g. none) give the same outcome: the same error class, or the same value
   for every bit in the write footprint, now and after the clock edge. *)
Theorem exec_dep G b st1 st2 : wf_declsb G = true -> st_ok st1 ->
  rel (fun v => block_rd G b v || block_wr G b v) st1 st2 ->
  match exec_block G b st1, exec_block G b st2 with
  | Ok a, Ok c => forall s j, block_wr G b (s, j) = true ->
                    Z.testbit (sigv a s) j = Z.testbit (sigv c s) j /\
                    Z.testbit (final_sig a s) j = Z.testbit (final_sig c s) j
  | Err x, Err y => x = y
  | _, _ => False
  end.
Proof.
  intros Wb S R. apply wf_declsb_sound in Wb.
  pose proof (two_block G (fun v => block_rd G b v || block_wr G b v) Wb b st1 st2 S R
                (fun v Hv => orb_true_intro _ _ (or_introl Hv))) as O.
  unfold res_rel in O. destruct (exec_block G b st1) as [a|x]; destruct (exec_block G b st2) as [c|y]; try exact O.
  intros s j Hj. assert (Hp : block_rd G b (s, j) || block_wr G b (s, j) = true) by (rewrite Hj; apply orb_true_r).
  split; [apply (proj1 O); exact Hp|]. apply (rel_final _ a c s j O Hp).
Qed.

(* exec_dep for the observable of Eval.run_block on two input vectors *)
Corollary run_block_dep G nsig b i1 i2 : wf_declsb G = true ->
  (forall s j, block_rd G b (s, j) || block_wr G b (s, j) = true -> Z.testbit (nth s i1 0) j = Z.testbit (nth s i2 0) j) ->
  match run_block G nsig b i1, run_block G nsig b i2 with
  | Ok (o1, _), Ok (o2, _) =>
      forall s j, (s < nsig)%nat -> block_wr G b (s, j) = true -> Z.testbit (nth s o1 0) j = Z.testbit (nth s o2 0) j
  | Err x, Err y => x = y
  | _, _ => False
  end.
Proof.
  intros Wb H. unfold run_block.
  pose proof (exec_dep G b (init_state i1) (init_state i2) Wb (init_ok i1) (rel_fresh _ _ _ H)) as O.
  destruct (exec_block G b (init_state i1)) as [a|x]; destruct (exec_block G b (init_state i2)) as [c|y]; cbn [bind]; try exact O.
  intros s j Hs Hj. rewrite !nth_map_seq. apply Nat.ltb_lt in Hs. rewrite Hs. apply O. exact Hj.
Qed.

Theorem rtl_dep G : wf_declsb G = true -> forall b, dep (rtl_blk G b).
Proof.
  intros Wb b e1 e2 Hag [s j] Hv. cbn [run rtl_blk wr rd] in *. unfold rtl_run.
  pose proof (exec_dep G b (state_of G e1) (state_of G e2) Wb (state_of_ok G e1)
                (state_of_rel G _ e1 e2 (fun v Hp => Hag v (orb_prop _ _ Hp)))) as O.
  assert (He : e1 (s, j) = e2 (s, j)) by (apply Hag; right; exact Hv).
  destruct (exec_block G b (state_of G e1)) as [a|x]; destruct (exec_block G b (state_of G e2)) as [c|y]; try contradiction.
  - destruct (in_sig G (s, j)); [|exact He]. cbn [fst snd]. apply O. exact Hv.
  - exact He.
Qed.

Lemma blk_mono {val : Type} (R : env bit val -> env bit val) (rd1 wr1 rd2 wr2 : bit -> bool) :
  frame (mkBlk rd1 wr1 R) -> dep (mkBlk rd1 wr1 R) ->
  (forall v, rd1 v = true -> rd2 v = true) -> (forall v, wr1 v = true -> wr2 v = true) ->
  frame (mkBlk rd2 wr2 R) /\ dep (mkBlk rd2 wr2 R).
Proof.
  intros F D Hr Hw. split.
  - intros e v Hv. cbn [wr run] in *. apply F. cbn [wr]. destruct (wr1 v) eqn:E; [|reflexivity].
    rewrite (Hw v E) in Hv. discriminate.
  - intros e1 e2 Hag v Hv. cbn [rd wr run] in *.
    destruct (wr1 v) eqn:E.
    + apply D; [|exact E]. intros u [Hu|Hu]; cbn [rd wr] in Hu; apply Hag; auto.
    + transitivity (e1 v); [exact (F e1 v E)|]. transitivity (e2 v); [|symmetry; exact (F e2 v E)].
      apply Hag. right. exact Hv.
Qed.

(* a block of the language satisfies the hypotheses of the scheduling theorems for ANY declared
   footprints that cover the computed ones *)
Theorem rtl_blk_footprints G b (rdD wrD : fp) : wf_declsb G = true ->
  covers rdD (reads_d G b) = true -> covers wrD (writes_d G b) = true ->
  frame (mkBlk (mem_fp rdD) (mem_fp wrD) (rtl_run G b)) /\ dep (mkBlk (mem_fp rdD) (mem_fp wrD) (rtl_run G b)).
Proof.
  intros Wb Cr Cw.
  apply (blk_mono (rtl_run G b) (block_rd G b) (block_wr G b)).
  - exact (rtl_frame G Wb b).
  - exact (rtl_dep G Wb b).
  - apply covers_sound. exact Cr.
  - apply covers_sound. exact Cw.
Qed.

(* Sched.Accept.accepted_schedules_agree for a design only SOME of whose blocks are in the language: the footprint
   hypotheses remain only for the other blocks (inl i = false), whose semantics R0 i is arbitrary *)
Theorem rtl_mixed_schedules_agree (G : decls) (progs : nat -> list stmt) (inl : nat -> bool)
        (R0 : nat -> env bit bool -> env bit bool) (d : design) :
  wf_declsb G = true -> wf_design d = true -> sw_ok d = true -> mixed_cover_ok G progs inl d = true ->
  (forall i, In i (ids d) -> inl i = false -> frame (Bd d R0 i) /\ dep (Bd d R0 i)) ->
  forall o1 o2, sched_ok d o1 = true -> sched_ok d o2 = true ->
  forall e, eqe (run_list (Bd d (mixed_run G progs inl R0)) o1 e) (run_list (Bd d (mixed_run G progs inl R0)) o2 e).
Proof.
  intros Wb Wd Sw Cv Hout.
  assert (K : forall i, In i (ids d) ->
            frame (Bd d (mixed_run G progs inl R0) i) /\ dep (Bd d (mixed_run G progs inl R0) i)).
  { intros i Hi. unfold mixed_cover_ok in Cv. rewrite forallb_forall in Cv. specialize (Cv i Hi).
    unfold Bd, mixed_run. destruct (inl i) eqn:E.
    - cbn [negb orb] in Cv. apply andb_prop in Cv. destruct Cv as [Cr Cw]. apply rtl_blk_footprints; assumption.
    - exact (Hout i Hi E). }
  apply (accepted_schedules_agree d (mixed_run G progs inl R0) Wd Sw (fun i Hi => proj1 (K i Hi)) (fun i Hi => proj2 (K i Hi))).
Qed.

Lemma mixed_cover_all G progs d : mixed_cover_ok G progs (fun _ => true) d = rtl_cover_ok G progs d.
Proof. reflexivity. Qed.

(* the end-to-end theorem of C01 with no footprint hypothesis: for a design whose blocks are all in the
   language, any two observed schedules accepted by sched_ok compute the same state *)
Theorem rtl_accepted_schedules_agree (G : decls) (progs : nat -> list stmt) (d : design) :
  wf_declsb G = true -> wf_design d = true -> sw_ok d = true -> rtl_cover_ok G progs d = true ->
  forall o1 o2, sched_ok d o1 = true -> sched_ok d o2 = true ->
  forall e, eqe (run_list (Bd d (fun i => rtl_run G (progs i))) o1 e)
                (run_list (Bd d (fun i => rtl_run G (progs i))) o2 e).
Proof.
  intros Wb Wd Sw Cv. rewrite <- mixed_cover_all in Cv.
  (* mixed_run with every block inline is rtl_run of the block's body, by computation *)
  refine (rtl_mixed_schedules_agree G progs (fun _ => true) (fun _ e => e) d Wb Wd Sw Cv _).
  intros i _ H. discriminate H.
Qed.
