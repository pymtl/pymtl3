(* RTL/Footprint.v — syntactic bit-level read / write footprints of update blocks of the RTL language
   (RTL/Syntax.v), as lists of bit intervals of the packed top-level signals (the [ivl] / [fp] types of
   Sched/Accept.v).  Definitions only; the soundness theorems are in RTL/FootprintSound.v (one run: frame) and RTL/FlowSound.v
   (two runs: dependence).

   Precision rules (at least as precise as pymtl3's AstHelper, so that "pymtl3's declared footprint covers
   the proved one" is a meaningful check):
     s.x, s.x.f...             the whole signal / field                      (offset and width from the table)
     s.x[lo:hi], s.x[i]        exactly the named bits when lo/hi/i are static: integer literals, closure
                               integers, loop variables (each loop iteration is accounted separately, the loop
                               variable ranging over the loop) and + - * of those; otherwise the whole
                               signal / field, as AstHelper does for a non-constant index
     anything else             the union of the sub-expressions
   Reads of a statement include the index / slice-bound expressions of its target and the conditions of
   enclosing ifs.  Temporaries and loop variables are not signals and have no footprint. *)
From PV Require Import Base.Prelude Bits.BitsSpec RTL.Syntax RTL.Eval Sched.Accept.
Open Scope Z_scope.

(* ---- the signal-shape table ----
   One shape per top-level signal (signal id = position in the list): a Bits vector of width w or a
   bitstruct with the listed fields in declaration order.  The first field is the most significant. *)
Inductive sshape : Type :=
| ShBits   (w : Z)
| ShStruct (fs : list sshape).
Definition sigshapes := list sshape.

Fixpoint swidth (t : sshape) : Z :=
  match t with
  | ShBits w => w
  | ShStruct fs => (fix go (l : list sshape) : Z := match l with [] => 0 | f :: r => swidth f + go r end) fs
  end.

(* every attribute path of a value of shape t that sits at bit offset lo: (path, width/offset) *)
Fixpoint shape_paths (t : sshape) (lo : Z) : list (list nat * finfo) :=
  ([], {| fw := swidth t; flo := lo; fstruct := match t with ShBits _ => None | ShStruct _ => Some 0%nat end |}) ::
  match t with
  | ShBits _ => []
  | ShStruct fs =>
      (fix go (l : list sshape) (i : nat) (top : Z) : list (list nat * finfo) :=
         match l with
         | [] => []
         | f :: r => map (fun pf => (i :: fst pf, snd pf)) (shape_paths f (top - swidth f)) ++ go r (S i) (top - swidth f)
         end) fs 0%nat (lo + swidth t)
  end.

Fixpoint decls_from (T : sigshapes) (s : nat) : decls :=
  match T with
  | [] => []
  | t :: r => map (fun pf => (s, fst pf, snd pf)) (shape_paths t 0) ++ decls_from r (S s)
  end.
(* the declaration table of RTL/Eval.v computed from the shapes *)
Definition decls_of (T : sigshapes) : decls := decls_from T 0%nat.

(* legal shapes: positive leaf widths, no empty struct, packed width below 1024 (the Bits limit) *)
Fixpoint wf_shape (t : sshape) : bool :=
  match t with
  | ShBits w => 0 <? w
  | ShStruct fs =>
      match fs with [] => false | _ => true end &&
      (fix go (l : list sshape) : bool := match l with [] => true | f :: r => wf_shape f && go r end) fs
  end.
Definition wf_shapes (T : sigshapes) : bool := forallb (fun t => wf_shape t && (swidth t <? 1024)) T.

(* what the soundness theorems need from a declaration table (a computable check) *)
Definition wf_finfo (f : finfo) : bool := (0 <? fw f) && (fw f <? 1024) && (0 <=? flo f).
Definition wf_declsb (G : decls) : bool := forallb (fun d => wf_finfo (snd d)) G.

(* one past the highest declared bit of signal s *)
Fixpoint sig_hi (G : decls) (s : nat) : Z :=
  match G with
  | [] => 0
  | (s', _, f) :: G' => if Nat.eqb s s' then Z.max (flo f + fw f) (sig_hi G' s) else sig_hi G' s
  end.

(* ---- static integers: what is known about loop variables while walking the block ---- *)
Definition lenv := list (nat * Z).
Fixpoint lookup_l (L : lenv) (i : nat) : option Z :=
  match L with [] => None | (j, z) :: r => if Nat.eqb i j then Some z else lookup_l r i end.
Definition kill (ids : list nat) (L : lenv) : lenv :=
  filter (fun p => negb (existsb (Nat.eqb (fst p)) ids)) L.

Fixpoint static_int (L : lenv) (e : expr) : option Z :=
  match e with
  | ELit z | EFree z => Some z
  | ELoop i => lookup_l L i
  | EBin op a b =>
      match static_int L a, static_int L b with
      | Some x, Some y =>
          match op with Add => Some (x + y) | Sub => Some (x - y) | Mul => Some (x * y) | _ => None end
      | _, _ => None
      end
  | _ => None
  end.

(* ---- footprints of signal accesses ---- *)
Definition whole_fp (G : decls) (s : nat) (p : list nat) : fp :=
  match lookup_sig G s p with Some f => [(s, flo f, flo f + fw f)] | None => [] end.

Definition slice_fp (G : decls) (L : lenv) (s : nat) (p : list nat) (lo hi : expr) : fp :=
  match lookup_sig G s p with
  | None => []
  | Some f =>
      match static_int L lo, static_int L hi with
      | Some l, Some h => if valid_range (fw f) l h then [(s, flo f + l, flo f + h)] else [(s, flo f, flo f + fw f)]
      | _, _ => [(s, flo f, flo f + fw f)]
      end
  end.

Definition index_fp (G : decls) (L : lenv) (s : nat) (p : list nat) (i : expr) : fp :=
  match lookup_sig G s p with
  | None => []
  | Some f =>
      match static_int L i with
      | Some k => if (0 <=? k) && (k <? fw f) then [(s, flo f + k, flo f + k + 1)] else [(s, flo f, flo f + fw f)]
      | None => [(s, flo f, flo f + fw f)]
      end
  end.

Definition base_sig (a : expr) : option (nat * list nat) :=
  match a with ESig s p => Some (s, p) | _ => None end.

(* ---- expressions ---- *)
Fixpoint reads_e (G : decls) (L : lenv) (e : expr) {struct e} : fp :=
  match e with
  | ESig s p => whole_fp G s p
  | ELit _ | ESized _ _ | EFree _ | ETmp _ | ELoop _ => []
  | ECast _ a | EInv a | EZext _ a | ESext _ a | ETrunc _ a | ERed _ a => reads_e G L a
  | EBin _ a b | ECmp _ a b => reads_e G L a ++ reads_e G L b
  | ESlice a lo hi =>
      match base_sig a with
      | Some (s, p) => slice_fp G L s p lo hi
      | None => reads_e G L a
      end ++ reads_e G L lo ++ reads_e G L hi
  | EIdx a i =>
      match base_sig a with
      | Some (s, p) => index_fp G L s p i
      | None => reads_e G L a
      end ++ reads_e G L i
  | EConcat es => (fix go (l : list expr) : fp := match l with [] => [] | x :: r => reads_e G L x ++ go r end) es
  | EIf c a b => reads_e G L c ++ reads_e G L a ++ reads_e G L b
  end.

(* ---- assignment targets ---- *)
Definition writes_lhs (G : decls) (L : lenv) (l : lhs) : fp :=
  match l with
  | LSig s p => whole_fp G s p
  | LSlice s p lo hi => slice_fp G L s p lo hi
  | LIndex s p i => index_fp G L s p i
  | LTmp _ => []
  end.
Definition reads_lhs (G : decls) (L : lenv) (l : lhs) : fp :=
  match l with
  | LSlice _ _ lo hi => reads_e G L lo ++ reads_e G L hi
  | LIndex _ _ i => reads_e G L i
  | LSig _ _ | LTmp _ => []
  end.

(* ---- statements ---- *)
(* loop variables a statement may rebind *)
Fixpoint loop_ids_s (s : stmt) : list nat :=
  match s with
  | SAssign _ _ _ _ => []
  | SIf _ _ t f =>
      (fix go (l : list stmt) : list nat := match l with [] => [] | x :: r => loop_ids_s x ++ go r end) t ++
      (fix go (l : list stmt) : list nat := match l with [] => [] | x :: r => loop_ids_s x ++ go r end) f
  | SFor id _ _ _ body =>
      id :: (fix go (l : list stmt) : list nat := match l with [] => [] | x :: r => loop_ids_s x ++ go r end) body
  end.
Fixpoint loop_ids_l (l : list stmt) : list nat :=
  match l with [] => [] | x :: r => loop_ids_s x ++ loop_ids_l r end.

(* the values a loop variable takes *)
Fixpoint iter_vals (n : nat) (i step : Z) : list Z :=
  match n with O => [] | S n' => i :: iter_vals n' (i + step) step end.

(* footprint of a statement list: after a statement, what it may have rebound is forgotten *)
Definition fp_list (f : stmt -> lenv -> fp) : list stmt -> lenv -> fp :=
  fix go (l : list stmt) (L : lenv) : fp :=
    match l with [] => [] | x :: r => f x L ++ go r (kill (loop_ids_s x) L) end.

Section Walk.
  Variable fa : lenv -> lhs -> expr -> fp.     (* contribution of an assignment *)
  Variable fc : lenv -> expr -> fp.            (* contribution of an if condition *)
  Fixpoint walk (s : stmt) (L : lenv) {struct s} : fp :=
    match s with
    | SAssign _ l e _ => fa L l e
    | SIf _ c t f => fc L c ++ fp_list walk t L ++ fp_list walk f L
    | SFor id lo hi step body =>
        flat_map (fun i => fp_list walk body ((id, i) :: kill (id :: loop_ids_l body) L))
                 (iter_vals (loop_count lo hi step) lo step)
    end.
End Walk.

Definition reads_s (G : decls) : stmt -> lenv -> fp :=
  walk (fun L l e => reads_lhs G L l ++ reads_e G L e) (fun L c => reads_e G L c).
Definition writes_s (G : decls) : stmt -> lenv -> fp :=
  walk (fun L l _ => writes_lhs G L l) (fun _ _ => []).

Definition reads_d (G : decls) (b : list stmt) : fp := fp_list (reads_s G) b [].
Definition writes_d (G : decls) (b : list stmt) : fp := fp_list (writes_s G) b [].

(* the footprints of a block over a shape table *)
Definition reads_of (T : sigshapes) (b : list stmt) : fp := reads_d (decls_of T) b.
Definition writes_of (T : sigshapes) (b : list stmt) : fp := writes_d (decls_of T) b.

(* ---- coverage: every bit of C is a bit of D (checked bit by bit; widths are below 1024) ---- *)
Definition ivl_covered (D : fp) (a : ivl) : bool :=
  forallb (fun k => mem_fp D (iroot a, ilo a + Z.of_nat k)) (seq 0 (Z.to_nat (ihi a - ilo a))).
Definition covers (D C : fp) : bool := forallb (ivl_covered D) C.

(* number of bits of a footprint that belong to signal ids below nsig (over-approximation statistics) *)
Definition fp_bits (G : decls) (nsig : nat) (F : fp) : Z :=
  fold_right Z.add 0
    (map (fun s => Z.of_nat (length (filter (fun k => mem_fp F (s, Z.of_nat k)) (seq 0 (Z.to_nat (sig_hi G s))))))
         (seq 0 nsig)).

(* ---- a design whose blocks are all in the language: the acceptor used by the end-to-end theorem ----
   progs i is the translated body of block i;  d carries the DECLARED (pymtl3) footprints. *)
Definition rtl_cover_ok (G : decls) (progs : nat -> list stmt) (d : design) : bool :=
  forallb (fun i => covers (rds d i) (reads_d G (progs i)) && covers (wrs d i) (writes_d G (progs i))) (ids d).

(* ================================================================ must-write / exposed-read analysis
   A flow-sensitive pass over a block (loops are walked iteration by iteration, their bounds being constants):
     D   the bits DEFINITELY written (with @=, at a static position) on every path that does not raise
     X   every read, paired with the D that held before it: a read bit is EXPOSED iff it is not in that D
   If all exposed reads of a block are known, its written bits in D do not depend on their previous values
   (RTL/FlowSound.v): no latch, and reading back what the block itself has just written (the arbiter kill chain)
   is not a read of the block. *)
Definition must_lhs (G : decls) (L : lenv) (l : lhs) : fp :=
  match l with
  | LSig s p => whole_fp G s p
  | LSlice s p lo hi =>
      match lookup_sig G s p with
      | None => []
      | Some f =>
          match static_int L lo, static_int L hi with
          | Some l, Some h => if valid_range (fw f) l h then [(s, flo f + l, flo f + h)] else []
          | _, _ => []
          end
      end
  | LIndex s p i =>
      match lookup_sig G s p with
      | None => []
      | Some f =>
          match static_int L i with
          | Some k => if (0 <=? k) && (k <? fw f) then [(s, flo f + k, flo f + k + 1)] else []
          | None => []
          end
      end
  | LTmp _ => []
  end.

(* bits of A that are also in B, as unit intervals *)
Definition fp_inter (A B : fp) : fp :=
  flat_map (fun a => map (fun k => (iroot a, ilo a + Z.of_nat k, ilo a + Z.of_nat k + 1))
                         (filter (fun k => mem_fp B (iroot a, ilo a + Z.of_nat k)) (seq 0 (Z.to_nat (ihi a - ilo a))))) A.

Definition xfp := list (fp * fp).
Definition exposed (X : xfp) (v : bit) : bool := existsb (fun p => mem_fp (fst p) v && negb (mem_fp (snd p) v)) X.

Definition flow_list (f : stmt -> lenv -> fp -> xfp * fp) : list stmt -> lenv -> fp -> xfp * fp :=
  fix go (l : list stmt) (L : lenv) (D : fp) : xfp * fp :=
    match l with
    | [] => ([], D)
    | x :: r => let xd := f x L D in let rd := go r (kill (loop_ids_s x) L) (snd xd) in (fst xd ++ fst rd, snd rd)
    end.

Fixpoint flow_iter (f : lenv -> fp -> xfp * fp) (mk : Z -> lenv) (vals : list Z) (D : fp) : xfp * fp :=
  match vals with
  | [] => ([], D)
  | i :: r => let xd := f (mk i) D in let rd := flow_iter f mk r (snd xd) in (fst xd ++ fst rd, snd rd)
  end.

Fixpoint flow_s (G : decls) (s : stmt) (L : lenv) (D : fp) {struct s} : xfp * fp :=
  match s with
  | SAssign _ l e b => ([(reads_lhs G L l ++ reads_e G L e, D)], if b then must_lhs G L l ++ D else D)
  | SIf _ c t f =>
      let a := flow_list (flow_s G) t L D in
      let b := flow_list (flow_s G) f L D in
      ((reads_e G L c, D) :: fst a ++ fst b, fp_inter (snd a) (snd b))
  | SFor id lo hi step body =>
      flow_iter (fun L' D' => flow_list (flow_s G) body L' D')
                (fun i => (id, i) :: kill (id :: loop_ids_l body) L)
                (iter_vals (loop_count lo hi step) lo step) D
  end.

Definition flow_d (G : decls) (b : list stmt) : xfp * fp := flow_list (flow_s G) b [] [].
(* exposed reads / definite writes of a block *)
Definition xreads_d (G : decls) (b : list stmt) : xfp := fst (flow_d G b).
Definition must_d (G : decls) (b : list stmt) : fp := snd (flow_d G b).

(* every exposed bit of X is a bit of Q *)
Definition xcovers (Q : fp) (X : xfp) : bool :=
  forallb (fun p => forallb (fun a => forallb (fun k => let v := (iroot a, ilo a + Z.of_nat k) in mem_fp (snd p) v || mem_fp Q v)
                                              (seq 0 (Z.to_nat (ihi a - ilo a)))) (fst p)) X.

(* a combinational block without latch: everything it may write, it definitely writes *)
Definition no_latch (G : decls) (b : list stmt) : bool := covers (must_d G b) (writes_d G b).
