(* RTL/TypingMono.v — the extra checks only restrict: tc is anti-monotone in [chk]; in particular whatever
   [tc strict] accepts, [tc impl] (the model of the code) accepts with the same type and node annotations. *)
From PV Require Import Base.Prelude RTL.Syntax RTL.SyntaxFacts RTL.Eval RTL.Typing RTL.TypingSound.
Open Scope Z_scope.

Definition le_chk (c1 c2 : nat -> bool) : Prop := forall k, c1 k = true -> c2 k = true.

(* Every place where [chk] enters the checker is a guard [if g then None else rest] whose condition only grows with
   [chk].  So a proof walks the guards of a rule one after the other with [guard_mono]; the side condition, an
   implication between the two instances of the guard, follows its boolean structure (hint database [ble]). *)
Definition ble (a b : bool) : Prop := a = true -> b = true.

Lemma ble_refl a : ble a a.
Proof. intros H. exact H. Qed.
Lemma ble_andb a1 a2 b1 b2 : ble a1 a2 -> ble b1 b2 -> ble (a1 && b1) (a2 && b2).
Proof. intros Ha Hb H. apply andb_prop in H as [H1 H2]. rewrite (Ha H1), (Hb H2). reflexivity. Qed.
Lemma ble_orb a1 a2 b1 b2 : ble a1 a2 -> ble b1 b2 -> ble (a1 || b1) (a2 || b2).
Proof. intros Ha Hb H. apply orb_prop in H as [H|H]; [rewrite (Ha H)|rewrite (Hb H), orb_true_r]; reflexivity. Qed.
Lemma ble_negb a b : ble b a -> ble (negb a) (negb b).
Proof. intros H Ha. destruct b; [rewrite (H eq_refl) in Ha; discriminate Ha|reflexivity]. Qed.
Lemma le_chk_at c1 c2 k : le_chk c1 c2 -> ble (c1 k) (c2 k).
Proof. intros Hle. exact (Hle k). Qed.

Create HintDb ble discriminated.
#[local] Hint Resolve ble_refl ble_andb ble_orb ble_negb le_chk_at : ble.

Lemma guard_mono {A} (g1 g2 : bool) (x1 x2 : option A) r : ble g1 g2 -> (x2 = Some r -> x1 = Some r) ->
  (if g2 then None else x2) = Some r -> (if g1 then None else x1) = Some r.
Proof. intros G X. destruct g1; [rewrite (G eq_refl); discriminate|]. destruct g2; [discriminate|exact X]. Qed.

(* the same for a condition written positively *)
Lemma accept_mono {A} (g1 g2 : bool) (x : option A) r : ble g2 g1 ->
  (if g2 then x else None) = Some r -> (if g1 then x else None) = Some r.
Proof. intros G. destruct g2; [rewrite (G eq_refl); trivial|discriminate]. Qed.

(* [via M t r]: case on [t : option _], a sub-result computed under the larger [chk], in hypothesis and goal alike;
   [M], the monotonicity of that sub-computation, turns the goal's counterpart under the smaller [chk] into the same value [r]. *)
Ltac via M t r :=
  let T := fresh "T" in
  pose proof M as T; hnf in T; revert T;
  destruct t as [r|]; [intros T; rewrite (T _ eq_refl); clear T; cbn beta iota|discriminate].

Lemma okc_mono c1 c2 r : le_chk c1 c2 -> ble (okc c2 r) (okc c1 r).
Proof. intros Hle. unfold okc. auto with ble. Qed.

Lemma enforce_ok_mono c1 c2 c r : le_chk c1 c2 -> ble (enforce_ok c2 c r) (enforce_ok c1 c r).
Proof. intros Hle. destruct c; [|apply ble_refl]. unfold enforce_ok. auto with ble. Qed.

#[local] Hint Resolve okc_mono enforce_ok_mono : ble.

Lemma rule_bin_mono c1 c2 op la ra : le_chk c1 c2 -> forall x, rule_bin c2 op la ra = Some x -> rule_bin c1 op la ra = Some x.
Proof.
  intros Hle x. unfold rule_bin.
  destruct (is_struct la || is_struct ra || is_div op); [trivial|]. cbn zeta.
  destruct (if is_shift op then Some (None, None) else unify la ra false) as [[cl cr]|]; [|trivial].
  apply guard_mono; [auto with ble|].
  destruct (acv la) as [a|]; [destruct (acv ra) as [b|]|]; [|apply guard_mono; [auto with ble|trivial]..].
  destruct (int_fold op a b) as [v|]; [|trivial]. apply guard_mono; [auto with ble|trivial].
Qed.

Lemma rule_if_mono c1 c2 rc la ra : le_chk c1 c2 -> forall x, rule_if c2 rc la ra = Some x -> rule_if c1 rc la ra = Some x.
Proof.
  intros Hle x. unfold rule_if.
  destruct (is_struct rc || is_struct la || is_struct ra); [trivial|]. cbn zeta.
  apply guard_mono; [auto with ble|].
  destruct (if abool la || abool ra then Some (None, None) else unify la ra true) as [[cl cr]|]; [|trivial].
  apply guard_mono; [auto with ble|]. apply guard_mono; [auto with ble|trivial].
Qed.

Lemma assign_sig_mono c1 c2 rl r : le_chk c1 c2 -> forall x, assign_sig c2 rl r = Some x -> assign_sig c1 rl r = Some x.
Proof.
  intros Hle x. unfold assign_sig. cbn zeta.
  destruct (astr (fst rl)), (astr (fst r)); try trivial.
  apply guard_mono; [apply ble_refl|]. apply guard_mono; [auto with ble|]. apply guard_mono; [auto with ble|trivial].
Qed.

Definition mono_at (c1 c2 : nat -> bool) (E : tenv) (e : expr) : Prop := forall r, tc c2 E e = Some r -> tc c1 E e = Some r.

(* the k of a[x : x+k] is typed by the rule for the slice although it is a child of the upper bound [hi] *)
Lemma slice_width_mono c1 c2 E wA rl rh lo hi : le_chk c1 c2 -> (forall y, In y (children hi) -> mono_at c1 c2 E y) ->
  forall w, slice_width c2 (tc c2 E) wA rl rh lo hi = Some w -> slice_width c1 (tc c1 E) wA rl rh lo hi = Some w.
Proof.
  intros Hle Hy w. unfold slice_width.
  (* the x : x+k branch occurs twice in the match on the two constants; it is treated once *)
  match goal with |- match acv rl with Some _ => _ | None => ?d2 end = _ -> match acv rl with Some _ => _ | None => ?d1 end = _ =>
    assert (Stride : d2 = Some w -> d1 = Some w) end.
  { destruct hi as [| | | | |op x y| | | | | | | | | | | |]; try trivial. destruct op; try trivial.
    apply guard_mono; [auto with ble|]. via (Hy y ltac:(cbn [children In]; auto)) (tc c2 E y) ry. trivial. }
  destruct (acv rl); [destruct (acv rh)|]; [trivial|exact Stride..].
Qed.

Lemma tc_list_mono c1 c2 E es : le_chk c1 c2 -> (forall y, In y es -> mono_at c1 c2 E y) ->
  forall x, tc_list (tc c2 E) (okc c2) es = Some x -> tc_list (tc c1 E) (okc c1) es = Some x.
Proof.
  intros Hle. induction es as [|e es IH]; intros Hy x; [trivial|]. cbn [tc_list].
  via (Hy e (or_introl eq_refl)) (tc c2 E e) rx.
  via (IH (fun y H => Hy y (or_intror H))) (tc_list (tc c2 E) (okc c2) es) p. destruct p as [w ns].
  apply guard_mono; [auto with ble|trivial].
Qed.

(* [Hc]: the checker is monotone at the children of [e]; [Hg]: and at their children *)
Lemma mono_step c1 c2 E e : le_chk c1 c2 -> (forall c, In c (children e) -> mono_at c1 c2 E c) ->
  (forall c, In c (children e) -> forall y, In y (children c) -> mono_at c1 c2 E y) -> mono_at c1 c2 E e.
Proof.
  intros Hle Hc Hg r.
  assert (Hc' : forall c, In c (children e) -> forall r, tc c2 E c = Some r -> tc c1 E c = Some r) by exact Hc.
  destruct e; cbn [children In] in Hc'; cbn [tc]; try trivial;
    (* ECast, EZext, ESext, ETrunc, ERed: one operand, one guard *)
    try solve [via (Hc' e ltac:(auto)) (tc c2 E e) ra; apply guard_mono; [auto with ble|trivial]].
  - (* EBin *) via (Hc' e1 ltac:(auto)) (tc c2 E e1) ra. via (Hc' e2 ltac:(auto)) (tc c2 E e2) rb.
    apply guard_mono; [auto with ble|].
    via (rule_bin_mono c1 c2 op (fst ra) (fst rb) Hle) (rule_bin c2 op (fst ra) (fst rb)) x. destruct x as [[x cl] cr].
    apply accept_mono. auto with ble.
  - (* ECmp *) via (Hc' e1 ltac:(auto)) (tc c2 E e1) ra. via (Hc' e2 ltac:(auto)) (tc c2 E e2) rb.
    apply guard_mono; [auto with ble|].
    destruct (rule_cmp (fst ra) (fst rb)) as [[[x cl] cr]|]; [|trivial]. apply accept_mono. auto with ble.
  - (* EInv *) via (Hc' e ltac:(auto)) (tc c2 E e) ra. cbn zeta.
    destruct (is_struct (fst ra)); [trivial|]. apply guard_mono; [auto with ble|trivial].
  - (* ESlice *) via (Hc' e1 ltac:(auto)) (tc c2 E e1) ra. via (Hc' e2 ltac:(auto)) (tc c2 E e2) rl.
    via (Hc' e3 ltac:(auto)) (tc c2 E e3) rh. cbn zeta.
    apply guard_mono; [auto with ble|]. apply guard_mono; [auto with ble|].
    destruct (acv (fst ra)); [trivial|].
    destruct (index_ext (aw (fst ra)) (fst rl) true) as [k1|]; [|trivial].
    destruct (index_ext (aw (fst ra)) (fst rh) false) as [k2|]; [|trivial].
    via (slice_width_mono c1 c2 E (aw (fst ra)) (fst rl) (fst rh) e2 e3 Hle (Hg e3 ltac:(cbn [children In]; auto)))
        (slice_width c2 (tc c2 E) (aw (fst ra)) (fst rl) (fst rh) e2 e3) w.
    apply accept_mono. auto with ble.
  - (* EIdx *) via (Hc' e1 ltac:(auto)) (tc c2 E e1) ra. via (Hc' e2 ltac:(auto)) (tc c2 E e2) ri. cbn zeta.
    apply guard_mono; [auto with ble|].
    destruct (index_ext (aw (fst ra)) (fst ri) true) as [k|]; [|trivial]. apply accept_mono. auto with ble.
  - (* EConcat *) via (tc_list_mono c1 c2 E es Hle Hc) (tc_list (tc c2 E) (okc c2) es) p. destruct p as [w ns].
    destruct es; [trivial|]. apply guard_mono; [auto with ble|trivial].
  - (* EIf *) via (Hc' e1 ltac:(auto)) (tc c2 E e1) rc. via (Hc' e2 ltac:(auto)) (tc c2 E e2) ra.
    via (Hc' e3 ltac:(auto)) (tc c2 E e3) rb. apply guard_mono; [auto with ble|].
    via (rule_if_mono c1 c2 (fst rc) (fst ra) (fst rb) Hle) (rule_if c2 (fst rc) (fst ra) (fst rb)) x. destruct x as [[x cl] cr].
    apply accept_mono. auto with ble.
Qed.

Lemma expr_children_ind (P : expr -> Prop) : (forall e, (forall c, In c (children e) -> P c) -> P e) -> forall e, P e.
Proof.
  intros H. induction e using expr_ind'; apply H; cbn [children In]; intros c Hc;
    repeat (destruct Hc as [<-|Hc]; [assumption|]); try contradiction.
  revert c Hc. apply Forall_forall. assumption.
Qed.

Theorem tc_mono c1 c2 E : le_chk c1 c2 -> forall e r, tc c2 E e = Some r -> tc c1 E e = Some r.
Proof.
  intros Hle e.
  (* strengthened to the children: [mono_step] at a slice needs the grandchild k of a[x : x+k] *)
  enough (Q : mono_at c1 c2 E e /\ forall y, In y (children e) -> mono_at c1 c2 E y) by exact (proj1 Q).
  induction e as [e IH] using expr_children_ind.
  assert (Hc : forall c, In c (children e) -> mono_at c1 c2 E c) by (intros c Hc; apply IH, Hc).
  split; [|exact Hc]. apply mono_step; [exact Hle|exact Hc|].
  intros c Hc'. exact (proj2 (IH c Hc')).
Qed.

Corollary strict_sub_impl E e r : tc strict E e = Some r -> tc impl E e = Some r.
Proof. apply tc_mono. intros k Hk. discriminate Hk. Qed.

Lemma tc_assign_mono c1 c2 E l e x : le_chk c1 c2 -> tc_assign c2 E l e = Some x -> tc_assign c1 E l e = Some x.
Proof.
  intros Hle. destruct (lhs_expr l) as [le|] eqn:Hl.
  - rewrite !(tc_assign_nontmp _ E l e le Hl).
    via (tc_mono c1 c2 E Hle e) (tc c2 E e) r. apply guard_mono; [auto with ble|].
    via (tc_mono c1 c2 E Hle le) (tc c2 E le) rl. via (assign_sig_mono c1 c2 rl r Hle) (assign_sig c2 rl r) ns. trivial.
  - destruct l; try discriminate Hl. unfold tc_assign.
    via (tc_mono c1 c2 E Hle e) (tc c2 E e) r. cbn zeta. apply guard_mono; [auto with ble|].
    destruct (is_struct (fst r)); [trivial|]. destruct (ttmp E id) as [[[[w ex] mi] bo]|]; [|trivial].
    destruct (negb (w =? aw (fst r))); [trivial|]. apply guard_mono; [auto with ble|trivial].
Qed.

(* runtime completeness phrased for the checker as implemented *)
Corollary tc_complete_bin_runtime_impl E st op a b ra rb n u m v :
  tc strict E a = Some ra -> tc strict E b = Some rb -> castfree a = true -> castfree b = true -> env_ok E st ->
  eval (tsig E) st a = Ok (VBits n u) -> eval (tsig E) st b = Ok (VBits m v) -> n <> m -> is_shift op = false ->
  eval (tsig E) st (EBin op a b) = Err EValue /\ tc impl E (EBin op a b) = None.
Proof.
  intros Ta Tb Ca Cb Henv Ea Eb Hnm Sh.
  split; [exact (proj1 (tc_complete_bin_runtime E st op a b ra rb n u m v Ta Tb Ca Cb Henv Ea Eb Hnm Sh))|].
  destruct (bits_val_explicit E st a ra n u Ta Ca Henv Ea) as [Xa Wa].
  destruct (bits_val_explicit E st b rb m v Tb Cb Henv Eb) as [Xb Wb].
  apply (tc_complete_bin impl E op a b ra rb (strict_sub_impl _ _ _ Ta) (strict_sub_impl _ _ _ Tb) Xa Xb); [congruence|exact Sh].
Qed.
