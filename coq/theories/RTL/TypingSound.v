(* RTL/TypingSound.v — the strict checker is sound on expressions and single assignments (property C10).  Everything turns
   on [val_ok a v]: the value [v] the simulator computes for a node has the type [a] the checker gave it (a Bits has that
   width, an int fits it); [tc_sound_gen] shows it for every node by induction, one lemma per rule of the checker.  Then:
   assignments, completeness for width mismatches between explicit operands, counterexamples for the checker as implemented. *)
From PV Require Import Base.Prelude Bits.BitsSpec Bits.BitsLemmas Bits.SpecFacts Bits.Helpers Bits.HelpersFacts
                       RTL.Syntax RTL.SyntaxFacts RTL.Eval RTL.EvalLemmas RTL.Typing.
Open Scope Z_scope.

Theorem lit_width z : 0 <= z ->
  1 <= nbits_of z /\ z < 2 ^ nbits_of z /\ (forall j, 1 <= j -> z < 2 ^ j -> nbits_of z <= j).
Proof.
  intros Hz. unfold nbits_of.
  destruct ((-1 <=? z) && (z <=? 1)) eqn:E1.
  - repeat split; intros; try lia. all: assert (z = 0 \/ z = 1) as [-> | ->] by lia; cbn; lia.
  - destruct (z <? 0) eqn:E2; [lia|].
    assert (H2 : 1 < z + 1) by lia.
    pose proof (Z.log2_up_spec (z + 1) H2) as [_ Hs].
    pose proof (Z.log2_up_pos (z + 1) H2).
    repeat split; try lia.
    intros j Hj Hlt. apply Z.log2_up_le_pow2; lia.
Qed.

Lemma nbits_of_pos z : 0 < nbits_of z.
Proof.
  unfold nbits_of. destruct ((-1 <=? z) && (z <=? 1)) eqn:E1; [lia|].
  destruct (z <? 0) eqn:E2; apply Z.log2_up_pos; lia.
Qed.

(* [strict] in the form in which [cbn] evaluates the single checks *)
Notation strict' := (fun _ : nat => true).

(* what holds of every type the strict checker assigns: an implicit term may always be a python int; an explicit term
   that may still be an int (an if-expression with one explicit side, a temporary) carries no constant, which lets
   [val_ok_cv] use the constant of any int-valued term; a term marked "unchecked + * <<" carries no constant *)
Definition ann_inv (a : ann) : Prop :=
  0 < aw a /\ (aex a = false -> aint a = true) /\ (aex a = true -> aint a = true -> acv a = None)
  /\ (aovf a = true -> acv a = None).

(* the invariant relating a node's type to the value the simulator computes: a Bits object only ever has an explicit
   type, of its width; an int is nonnegative, fits the width unless marked [aovf], and, for an implicit term with a
   recorded constant, is that constant *)
Definition val_ok (a : ann) (v : value) : Prop :=
  match v with
  | VBits n u => n = aw a /\ wfn n /\ inrange n u /\ aex a = true
  | VInt z => 0 <= z /\ aint a = true /\ (aovf a = false -> z < 2 ^ aw a)
              /\ (aex a = false -> forall c, acv a = Some c -> z = c)
  end.

(* [EValue] is the class of width errors (ValueError); every other exception is outside the property *)
Definition res_ok (a : ann) (r : res value) : Prop :=
  match r with Ok v => val_ok a v | Err EValue => False | Err _ => True end.

Definition tmp_ann (w : Z) (ex mi bo : bool) : ann :=
  {| aw := w; aex := ex; asig := true; acv := None; amut := true; astr := None; aint := mi; aovf := false; abool := bo |}.

Definition env_ok (E : tenv) (st : state) : Prop :=
  (forall i w ex mi bo, ttmp E i = Some (w, ex, mi, bo) ->
     0 < w /\ (ex = false -> mi = true) /\ forall v, tmpv st i = Some v -> val_ok (tmp_ann w ex mi bo) v) /\
  (forall i w, tloop E i = Some w -> 0 < w /\ forall z, loopv st i = Some z -> 0 <= z < 2 ^ w).

Lemma res_ok_bind a r f b :
  res_ok a r -> (forall v, r = Ok v -> val_ok a v -> res_ok b (f v)) -> res_ok b (bind r f).
Proof.
  intros Hr Hf. destruct r as [v|e]; cbn [bind].
  - apply Hf; auto.
  - destruct e; cbn in *; auto.
Qed.

Lemma res_ok_weaken a b r : (forall v, val_ok a v -> val_ok b v) -> res_ok a r -> res_ok b r.
Proof. intros H. destruct r as [v|[]]; cbn; auto. Qed.

(* what a context of width [w] asks of an operand: an explicit one has that width, an implicit one is not wider;
   then its value is a Bits of width [w] or an int that a Bits of width [w] takes as the other operand *)
Definition ctx_ok (w : Z) (a : ann) : Prop := if aex a then aw a = w else aw a <= w.
Definition fitsw (w : Z) (v : value) : Prop :=
  match v with VBits n u => n = w /\ inrange n u | VInt z => 0 <= z < 2 ^ w end.

Lemma ann_inv_mk w sig cv mut : 0 < w -> ann_inv (mk w true sig cv mut false).
Proof. intros H. repeat split; auto; discriminate. Qed.

Lemma val_ok_bits a n u : val_ok a (VBits n u) -> aex a = true /\ n = aw a /\ wfn n /\ inrange n u.
Proof. cbn. tauto. Qed.
Lemma val_ok_int a z : val_ok a (VInt z) -> 0 <= z /\ aint a = true.
Proof. cbn. tauto. Qed.
Lemma val_ok_int_lt a z : val_ok a (VInt z) -> aovf a = false -> 0 <= z < 2 ^ aw a.
Proof. cbn. intuition. Qed.
Lemma val_ok_implicit a v : val_ok a v -> aex a = false -> exists z, v = VInt z.
Proof. destruct v; cbn; [intros (_ & _ & _ & H) H'; congruence|eauto]. Qed.
Lemma val_ok_cv a z c : val_ok a (VInt z) -> ann_inv a -> acv a = Some c -> z = c.
Proof.
  cbn. intros (_ & Hi & _ & Hc) (_ & _ & H3 & _) Hcv.
  destruct (aex a) eqn:E; [rewrite H3 in Hcv by auto; discriminate|auto].
Qed.

Lemma val_ok_vbits a n u : n = aw a -> aex a = true -> wfn n -> inrange n u -> val_ok a (VBits n u).
Proof. cbn. auto. Qed.
Lemma val_ok_bit a u : aw a = 1 -> aex a = true -> 0 <= u < 2 ^ 1 -> val_ok a (VBits 1 u).
Proof. intros Hw Hx Hu. apply val_ok_vbits; auto. unfold wfn; lia. Qed.
Lemma val_ok_vint a z : 0 <= z -> aint a = true -> acv a = None -> (aovf a = false -> z < 2 ^ aw a) -> val_ok a (VInt z).
Proof. intros Pz Ia Cv Hz. cbn. rewrite Cv. repeat split; auto. discriminate. Qed.

Lemma val_ok_fits a v w : val_ok a v -> 0 < aw a -> aovf a = false -> ctx_ok w a -> fitsw w v.
Proof.
  unfold ctx_ok. intros Hv Pa Ov Hc. destruct v as [n u|z].
  - apply val_ok_bits in Hv as (Ex & -> & _ & Hu). rewrite Ex in Hc. split; [exact Hc|exact Hu].
  - pose proof (val_ok_int_lt _ _ Hv Ov) as Hz. pose proof (pow2_le_mono (aw a) w). cbn.
    destruct (aex a); [subst w; exact Hz|lia].
Qed.

Lemma val_ok_widen a r v : val_ok a v -> 0 < aw a -> aovf a = false -> ctx_ok (aw r) a ->
  (aex a = true -> aex r = true) -> (aint a = true -> aint r = true) -> acv r = None -> val_ok r v.
Proof.
  intros Hv Pa Ov Hc Hex Hint Hcv. pose proof (val_ok_fits a v (aw r) Hv Pa Ov Hc) as F. destruct v as [n u|z].
  - apply val_ok_bits in Hv as (Ex & _ & Wn & Hu). destruct F as [-> _]. apply val_ok_vbits; auto.
  - apply val_ok_int in Hv as [Pz Iz]. cbn in F |- *. rewrite Hcv. repeat split; auto; try lia. discriminate.
Qed.

Lemma val_ok_tmp R v bo : val_ok R v -> aovf R = false -> val_ok (tmp_ann (aw R) (aex R) (aint R) bo) v.
Proof. intros Hv Ov. destruct v as [n u|z]; cbn in *; [tauto|]. intuition; discriminate. Qed.

(* Bits operations on operands that fit: facts on Bits/BitsSpec.v and RTL/Eval.v alone *)
Lemma int_operand_fit n k : 0 <= k < 2 ^ n -> int_operand_ok n k = true.
Proof. intros H. destruct (int_operand_okP n k); [reflexivity|contradiction]. Qed.

Definition nodiv (op : binop) : Prop := match op with FloorDiv | Mod => False | _ => True end.

Lemma arith_total op n a b : nodiv op -> exists r, arith op n a b = Ok r.
Proof. destruct op; cbn; intros H; try contradiction; eauto. Qed.

Lemma spec_binop_fits op n a vb : nodiv op -> wfn n -> inrange n a -> fitsw n vb ->
  exists r, spec_binop op n a (to_operand vb) = Ok (n, r) /\ inrange n r.
Proof.
  intros Hop Hn Ha Hb. destruct (arith_total op n a (value_int vb) Hop) as [r Hr]. exists r.
  destruct vb as [m b|k]; cbn [fitsw to_operand spec_binop value_int] in *.
  - destruct Hb as [-> Hb]. rewrite Z.eqb_refl, Hr. split; [reflexivity|exact (arith_range op n a b r Hn Ha Hb Hr)].
  - rewrite (int_operand_fit n k Hb), Hr.
    split; [reflexivity|exact (arith_range op n a k r Hn Ha Hb Hr)].
Qed.

Lemma bits_rbinop_int op n a k : nodiv op -> wfn n -> inrange n a -> 0 <= k < 2 ^ n ->
  exists r, spec_rbinop op n a (OInt k) = Ok (n, r) /\ inrange n r.
Proof.
  intros Hop Hn Ha Hk. cbn [spec_rbinop]. rewrite (int_operand_fit n k Hk).
  destruct (arith_total op n k a Hop) as [r Hr]. rewrite Hr. cbn [bind]. exists r. split; [reflexivity|].
  exact (arith_range op n k a r Hn Hk Ha Hr).
Qed.

Lemma eval_bin_bits_l op n a vb : nodiv op -> wfn n -> inrange n a -> fitsw n vb ->
  exists r, eval_bin op (VBits n a) vb = Ok (VBits n r) /\ inrange n r.
Proof.
  intros Hop Hn Ha Hb. destruct (spec_binop_fits op n a vb Hop Hn Ha Hb) as (r & E & Hr).
  exists r. cbn [eval_bin]. rewrite E. split; [reflexivity|exact Hr].
Qed.

Lemma eval_bin_bits_r op n k b : nodiv op -> is_shift op = false -> wfn n -> inrange n b -> 0 <= k < 2 ^ n ->
  exists r, eval_bin op (VInt k) (VBits n b) = Ok (VBits n r) /\ inrange n r.
Proof.
  intros Hop Sh Hn Hb Hk.
  destruct (spec_binop_fits op n b (VInt k) Hop Hn Hb Hk) as (r1 & E1 & R1). cbn [to_operand] in E1.
  destruct (bits_rbinop_int op n b k Hop Hn Hb Hk) as (r2 & E2 & R2).
  destruct op; try discriminate Sh; try contradiction Hop; cbn [eval_bin]; rewrite ?E1, ?E2; cbn; eauto.
Qed.

Lemma b2z_range b : 0 <= b2z b < 2 ^ 1.
Proof. destruct b; cbn; lia. Qed.

Lemma spec_cmp_fits op n a vb : wfn n -> fitsw n vb ->
  spec_cmp op n a (to_operand vb) = Ok (1, b2z (cmp op a (value_int vb))).
Proof.
  intros Hn Hb. destruct vb as [m b|k]; cbn [fitsw] in Hb; cbn [to_operand spec_cmp value_int].
  - destruct Hb as [-> _]. rewrite Z.eqb_refl. reflexivity.
  - rewrite (int_operand_fit n k Hb). reflexivity.
Qed.

Lemma unify_ctx la ra ifx c : unify la ra ifx = Some c ->
  ctx_ok (Z.max (aw la) (aw ra)) la /\ ctx_ok (Z.max (aw la) (aw ra)) ra.
Proof.
  unfold unify, ctx_ok. destruct (ifx && (aw la =? aw ra)) eqn:Q.
  { apply andb_prop in Q as [_ Q]. intros _. destruct (aex la), (aex ra); lia. }
  destruct (aex la), (aex ra);
    [destruct (aw la =? aw ra) eqn:C|destruct (aw la <? aw ra) eqn:C|destruct (aw ra <? aw la) eqn:C|];
    try discriminate; intros _; lia.
Qed.

(* a constant the checker knows: a literal, or the result of folding *)
Lemma lit_ann_ok z mut : 0 <= z ->
  ann_inv (mk (nbits_of z) false false (Some z) mut true) /\ val_ok (mk (nbits_of z) false false (Some z) mut true) (VInt z).
Proof.
  intros Hz. pose proof (lit_width z Hz) as (L1 & L2 & _). split.
  - unfold ann_inv, mk; cbn. repeat split; auto; try lia; discriminate.
  - cbn. repeat split; auto. intros _ c [= <-]; reflexivity.
Qed.

Lemma int_fold_eval op x y v : int_fold op x y = Some v -> eval_int_bin op x y = Ok (VInt v).
Proof.
  destruct op; cbn [int_fold eval_int_bin]; try discriminate; try (intros [= <-]; reflexivity);
    (destruct (y <? 0); [discriminate|]); cbn [orb];
    (* both limits are bounds of the model (pymtl3 has none); all that matters is fold_limit <= int_shift_limit *)
    (destruct (fold_limit <? y) eqn:Y1; [discriminate|]);
    (destruct (int_shift_limit <? y) eqn:Y2; [unfold fold_limit, int_shift_limit in *; lia|]); intros [= <-]; reflexivity.
Qed.

(* the folded constant is the value the evaluator computes (an int shifted by a Bits is a TypeError) *)
Lemma fold_sound op la ra x y v : int_fold op x y = Some v -> 0 <= v -> ann_inv la -> ann_inv ra ->
  acv la = Some x -> acv ra = Some y -> aex la = false -> is_shift op = true \/ aex ra = false ->
  let r := mk (nbits_of v) false false (Some v) false true in
  ann_inv r /\ forall va vb, val_ok la va -> val_ok ra vb -> res_ok r (eval_bin op va vb).
Proof.
  intros F Pv Ila Ira Cx Cy Exl Hr r. destruct (lit_ann_ok v false Pv) as [Iv Vv]. split; [exact Iv|].
  intros va vb Va Vb. destruct (val_ok_implicit _ _ Va Exl) as [zx ->]. rewrite (val_ok_cv _ _ _ Va Ila Cx).
  destruct vb as [m b|zy].
  - apply val_ok_bits in Vb as (Exr & _). destruct Hr as [Sh|Exr']; [|congruence]. destruct op; try discriminate Sh; exact I.
  - rewrite (val_ok_cv _ _ _ Vb Ira Cy). cbn [eval_bin]. rewrite (int_fold_eval _ _ _ _ F). exact Vv.
Qed.

(* visit_BinOp, max-width operators *)
Lemma rule_bin_sound_max op la ra r cl cr :
  is_shift op = false -> rule_bin strict' op la ra = Some (r, cl, cr) ->
  ann_inv la -> ann_inv ra -> aovf la = false -> aovf ra = false ->
  ann_inv r /\ forall va vb, val_ok la va -> val_ok ra vb -> res_ok r (eval_bin op va vb).
Proof.
  intros Sh H Ila Ira Ola Ora. unfold rule_bin in H. rewrite Sh in H.
  destruct (is_struct la || is_struct ra || is_div op) eqn:Hd; [discriminate|].
  assert (Hop : nodiv op) by (destruct op; cbn in *; auto; rewrite !orb_true_r in Hd; discriminate).
  destruct (unify la ra false) as [[cl' cr']|] eqn:U; [|discriminate].
  apply unify_ctx in U as [Cl Cr]. cbn [andb] in H.
  pose proof Ila as (Pla & Ila2 & _). pose proof Ira as (Pra & Ira2 & _).
  set (w := Z.max (aw la) (aw ra)) in *. set (mi := aint la && aint ra) in *.
  (* the branch without folding occurs twice in the match on the two constants; it is treated once *)
  set (nofold := if mi && _ then None else _) in H.
  assert (NoFold : nofold = Some (r, cl, cr) ->
            ann_inv r /\ forall va vb, val_ok la va -> val_ok ra vb -> res_ok r (eval_bin op va vb)).
  { clear H. subst nofold. destruct (mi && match op with Sub => true | _ => false end) eqn:S3; [discriminate|].
    intros [= <- <- <-]. split.
    - unfold ann_inv; cbn. repeat split; try lia; auto.
      intros Ex. apply orb_false_elim in Ex as [Exl Exr]. unfold mi. rewrite Ila2, Ira2; auto.
    - intros va vb Va Vb.
      pose proof (val_ok_fits _ _ w Va Pla Ola Cl) as Fa. pose proof (val_ok_fits _ _ w Vb Pra Ora Cr) as Fb.
      destruct va as [n a|zx]; [|destruct vb as [m b|zy]].
      + apply val_ok_bits in Va as (Ea & _ & Wa & Ra). destruct Fa as [-> _].
        destruct (eval_bin_bits_l op w a vb Hop Wa Ra Fb) as (u & -> & Ru).
        apply val_ok_vbits; cbn; auto. rewrite Ea; reflexivity.
      + apply val_ok_bits in Vb as (Eb & _ & Wb & Rb). destruct Fb as [-> _].
        destruct (eval_bin_bits_r op w zx b Hop Sh Wb Rb Fa) as (u & -> & Ru).
        apply val_ok_vbits; cbn; auto. rewrite Eb; apply orb_true_r.
      + pose proof (val_ok_int _ _ Va) as [Pa Ia]. pose proof (val_ok_int _ _ Vb) as [Pb Ib]. cbn [fitsw] in Fa, Fb.
        unfold mi in *. rewrite Ia, Ib in *. cbn [andb] in S3.
        destruct (land_range zx zy w ltac:(lia) Fa Fb). destruct (lor_range zx zy w ltac:(lia) Fa Fb).
        destruct (lxor_range zx zy w ltac:(lia) Fa Fb).
        (* & | ^ stay within the width; + and * get no bound, their result is marked [aovf]; - was rejected by (S3) *)
        destruct op; try discriminate Sh; try discriminate S3; try contradiction Hop;
          apply val_ok_vint; cbn; auto using Z.add_nonneg_nonneg, Z.mul_nonneg_nonneg; discriminate. }
  destruct (acv la) as [x|] eqn:Cx; [destruct (acv ra) as [y|] eqn:Cy|]; [|exact (NoFold H)..]. clear NoFold nofold.
  (* constant folding *)
  destruct (int_fold op x y) as [v|] eqn:F; [|discriminate].
  destruct (aex la || aex ra) eqn:Ex; [discriminate|]. cbn [andb orb] in H.
  destruct (v <? 0) eqn:Vn; [discriminate|]. injection H as <- <- <-.
  apply orb_false_elim in Ex as [Exl Exr]. unfold mi. rewrite (Ila2 Exl), (Ira2 Exr). cbn [andb].
  exact (fold_sound op la ra x y v F ltac:(lia) Ila Ira Cx Cy Exl (or_intror Exr)).
Qed.

(* visit_BinOp, shifts (left-width rule) *)
Lemma rule_bin_sound_shift op la ra r cl cr :
  is_shift op = true -> rule_bin strict' op la ra = Some (r, cl, cr) ->
  ann_inv la -> ann_inv ra -> aovf la = false -> aovf ra = false ->
  ann_inv r /\ forall va vb, val_ok la va -> val_ok ra vb -> res_ok r (eval_bin op va vb).
Proof.
  intros Sh H Ila Ira Ola Ora. unfold rule_bin in H. rewrite Sh in H.
  destruct (is_struct la || is_struct ra || is_div op) eqn:Hd; [discriminate|].
  assert (Hop : nodiv op) by (destruct op; cbn in *; auto; discriminate).
  cbn [andb] in H.
  destruct (aex la && negb (if aex ra then aw ra =? aw la else aw ra <=? aw la)) eqn:ShChk; [discriminate|].
  pose proof Ila as (Pla & Ila2 & _). pose proof Ira as (Pra & _).
  assert (Hamt : aex la = true -> ctx_ok (aw la) ra).
  { intros E; rewrite E in ShChk; cbn in ShChk. unfold ctx_ok. destruct (aex ra); lia. }
  (* as in [rule_bin_sound_max]: the branch without folding is treated once *)
  set (nofold := if aint la && _ then None else _) in H.
  assert (NoFold : nofold = Some (r, cl, cr) ->
            ann_inv r /\ forall va vb, val_ok la va -> val_ok ra vb -> res_ok r (eval_bin op va vb)).
  { clear H. subst nofold. destruct (aint la && match op with Sub => true | _ => false end); [discriminate|].
    intros [= <- <- <-]. split.
    - unfold ann_inv; cbn. repeat split; try lia; auto.
    - intros va vb Va Vb. destruct va as [n a|zx]; [|destruct vb as [m b|zy]].
      + apply val_ok_bits in Va as (Ea & -> & Wa & Ra).
        pose proof (val_ok_fits _ _ _ Vb Pra Ora (Hamt Ea)) as Fb.
        destruct (eval_bin_bits_l op _ a vb Hop Wa Ra Fb) as (u & -> & Ru). apply val_ok_vbits; cbn; auto.
      + destruct op; try discriminate Sh; exact I.
      + pose proof (val_ok_int _ _ Va) as [Pa Ia]. pose proof (val_ok_int _ _ Vb) as [Pb Ib].
        pose proof (val_ok_int_lt _ _ Va Ola) as Ra.
        assert (Y0 : (zy <? 0) = false) by lia. assert (P2 : 0 <= 2 ^ zy) by (apply Z.pow_nonneg; lia).
        destruct (div_range zx (2 ^ zy) (aw la) Ra P2) as [D1 D2].
        (* >> stays within the width of the left operand; << gets no bound, its result is marked [aovf] *)
        destruct op; try discriminate Sh; cbn [eval_bin eval_int_bin]; unfold int_shift_limit; rewrite Y0;
          (destruct (65536 <? zy); [exact I|]);
          apply val_ok_vint; cbn; rewrite ?Ia; auto using Z.mul_nonneg_nonneg; discriminate. }
  destruct (acv la) as [x|] eqn:Cx; [destruct (acv ra) as [y|] eqn:Cy|]; [|exact (NoFold H)..]. clear NoFold nofold.
  (* constant folding *)
  destruct (int_fold op x y) as [v|] eqn:F; [|discriminate].
  destruct (aex la) eqn:Exl; [discriminate|]. cbn [andb orb] in H.
  destruct (v <? 0) eqn:Vn; [discriminate|]. injection H as <- <- <-.
  rewrite (Ila2 eq_refl). exact (fold_sound op la ra x y v F ltac:(lia) Ila Ira Cx Cy Exl (or_introl Sh)).
Qed.

Lemma rule_bin_sound op la ra r cl cr :
  rule_bin strict' op la ra = Some (r, cl, cr) ->
  ann_inv la -> ann_inv ra -> aovf la = false -> aovf ra = false ->
  ann_inv r /\ forall va vb, val_ok la va -> val_ok ra vb -> res_ok r (eval_bin op va vb).
Proof.
  destruct (is_shift op) eqn:Sh; [apply rule_bin_sound_shift|apply rule_bin_sound_max]; exact Sh.
Qed.

(* visit_Compare *)
Lemma rule_cmp_sound op la ra r cl cr :
  rule_cmp la ra = Some (r, cl, cr) ->
  ann_inv la -> ann_inv ra -> aovf la = false -> aovf ra = false ->
  ann_inv r /\ forall va vb, val_ok la va -> val_ok ra vb -> res_ok r (eval_cmp op va vb).
Proof.
  intros H Ila Ira Ola Ora. unfold rule_cmp in H.
  destruct (is_struct la || is_struct ra); [discriminate|].
  destruct (unify la ra false) as [[cl' cr']|] eqn:U; [|discriminate].
  apply unify_ctx in U as [Cl Cr]. injection H as <- <- <-.
  pose proof Ila as (Pla & _). pose proof Ira as (Pra & _).
  split; [unfold ann_inv; cbn; repeat split; auto; try lia; discriminate|].
  intros va vb Va Vb. set (w := Z.max (aw la) (aw ra)) in *.
  pose proof (val_ok_fits _ _ w Va Pla Ola Cl) as Fa. pose proof (val_ok_fits _ _ w Vb Pra Ora Cr) as Fb.
  destruct va as [n a|zx]; [|destruct vb as [m b|zy]]; cbn [eval_cmp].
  - apply val_ok_bits in Va as (_ & _ & Wa & _). destruct Fa as [-> _].
    rewrite (spec_cmp_fits op w a vb Wa Fb). cbn [vbits bind fst snd res_ok]. apply val_ok_bit; auto using b2z_range.
  - apply val_ok_bits in Vb as (_ & _ & Wb & _). destruct Fb as [-> _].
    (* the ascription only reduces [to_operand (VInt zx)] *)
    rewrite (spec_cmp_fits (swap_cmp op) w b (VInt zx) Wb Fa : spec_cmp _ _ _ (OInt zx) = _).
    cbn [vbits bind fst snd res_ok]. apply val_ok_bit; auto using b2z_range.
  - pose proof (val_ok_int _ _ Va) as [_ Ia]. pose proof (val_ok_int _ _ Vb) as [_ Ib].
    pose proof (b2z_range (cmp op zx zy)) as []. apply val_ok_vint; cbn; auto. rewrite Ia, Ib. reflexivity.
Qed.

Lemma aw_enf c a : aw (enf_ann c a) = if amut a && negb (aex a) then c else aw a.
Proof. unfold enf_ann. destruct (amut a && negb (aex a)); reflexivity. Qed.

(* visit_IfExp: whichever branch is taken, its value has the type given to the if-expression *)
Lemma rule_if_sound rc la ra r cl cr :
  rule_if strict' rc la ra = Some (r, cl, cr) ->
  ann_inv la -> ann_inv ra -> aovf la = false -> aovf ra = false ->
  ann_inv r /\ (forall v, val_ok la v -> val_ok r v) /\ (forall v, val_ok ra v -> val_ok r v).
Proof.
  intros H Ila Ira Ola Ora. unfold rule_if in H.
  destruct (is_struct rc || is_struct la || is_struct ra); [discriminate|]. cbn zeta in H. cbn [andb] in H.
  destruct ((abool la || abool ra) && negb (aex la && aex ra && (aw la =? aw ra))) eqn:S13; [discriminate|].
  assert (U0 : (if abool la || abool ra then Some (None, None) else unify la ra true) = unify la ra true).
  { destruct (abool la || abool ra); [|reflexivity]. cbn [andb] in S13. apply negb_false_iff in S13.
    apply andb_prop in S13 as [S13 Q]. unfold unify. rewrite Q. reflexivity. }
  rewrite U0 in H. clear U0 S13.
  destruct (unify la ra true) as [[cl' cr']|] eqn:U; [|discriminate].
  destruct (negb (aex la) && negb (aex ra) && (aw la <? aw ra)) eqn:S5; [discriminate|].
  destruct (negb (eqb (aex la) (aex ra)) &&
            negb (aw match cl' with Some c => enf_ann c la | None => la end =?
                  aw match cr' with Some c => enf_ann c ra | None => ra end)) eqn:S10; [discriminate|].
  injection H as <- <- <-.
  pose proof Ila as (Pla & Ila2 & _). pose proof Ira as (Pra & _).
  destruct (unify_ctx _ _ _ _ U) as [Cl Cr].
  (* under (S5) and (S10) the width given to the if-expression is the greater of the two *)
  assert (HW : aw match cl' with Some c => enf_ann c la | None => la end = Z.max (aw la) (aw ra)).
  { unfold unify in U. cbn [andb] in U. destruct (aw la =? aw ra) eqn:Q.
    { injection U as <- <-. lia. }
    destruct (aex la) eqn:El, (aex ra) eqn:Er; cbn [negb andb eqb] in *.
    - discriminate.
    - destruct (aw la <? aw ra) eqn:E; [discriminate|]. injection U as <- <-. lia.
    - destruct (aw ra <? aw la) eqn:E; [discriminate|]. injection U as <- <-. lia.
    - destruct (aw ra <=? aw la) eqn:E2; [|lia]. injection U as <- <-. rewrite aw_enf.
      destruct (amut la && negb (aex la)); lia. }
  rewrite <- HW in Cl, Cr.
  split; [|split; intros v Hv].
  - unfold ann_inv; cbn. rewrite HW. repeat split; auto; try lia.
    intros Ex. apply orb_false_elim in Ex as [Exl Exr]. rewrite Ila2; auto.
  - apply (val_ok_widen la); cbn; auto; intros ->; reflexivity.
  - apply (val_ok_widen ra); cbn; auto; intros ->; apply orb_true_r.
Qed.

Definition sound_at (e : expr) : Prop :=
  forall E st a l, tc strict' E e = Some (a, l) -> castfree e = true -> env_ok E st ->
    ann_inv a /\ res_ok a (eval (tsig E) st e).

Lemma sound_sig s p : sound_at (ESig s p).
Proof.
  intros E st a l Htc Hcf Henv. cbn [tc] in Htc. cbn [eval].
  destruct (lookup_sig (tsig E) s p) as [f|] eqn:L; [|discriminate].
  destruct (sig_nodes (tsig E) s (tl (rev (prefixes p)))); [|discriminate].
  destruct (wf_width (fw f)) eqn:W; [|discriminate]. injection Htc as <- <-.
  unfold wf_width in W. split.
  - unfold ann_inv, sig_ann; cbn. repeat split; try lia; discriminate.
  - apply val_ok_vbits; cbn; [reflexivity|reflexivity|unfold wfn; lia|apply Z.mod_pos_bound, pow2_gt0; lia].
Qed.

Lemma sound_lit z : sound_at (ELit z) /\ sound_at (EFree z).
Proof.
  split; intros E st a l Htc Hcf Henv; cbn [tc] in Htc; cbn [eval];
    (destruct (z <? 0) eqn:Z0; [discriminate|]); injection Htc as <- <-;
    destruct (lit_ann_ok z true ltac:(lia)); split; assumption.
Qed.

Lemma sound_sized n z : sound_at (ESized n z).
Proof.
  intros E st a l Htc Hcf Henv. cbn [tc] in Htc. cbn [eval castfree] in *.
  destruct ((z <? 0) || negb (wf_width n)) eqn:C; [discriminate|]. injection Htc as <- <-.
  unfold wf_width in C. assert (Hn : 1 <= n < 1024) by lia. assert (Hz : 0 <= z < 2 ^ n) by lia.
  split.
  - apply ann_inv_mk; lia.
  - unfold eval_cast, spec_init. cbn [to_operand].
    destruct ((n <? 1) || (1024 <=? n)) eqn:E1; [lia|].
    assert (0 <= 2 ^ (n - 1)) by (apply Z.pow_nonneg; lia). rewrite spec_store_int by lia. cbn.
    rewrite Z.mod_small by lia. unfold wfn, inrange. repeat split; auto; lia.
Qed.

Lemma okc_true (r : typed) : okc strict' r = true -> aovf (fst r) = false.
Proof. unfold okc. cbn. destruct (aovf (fst r)); [discriminate|reflexivity]. Qed.

(* the BinOp and Compare clauses of [tc] differ in the rule only *)
Lemma sound_binary (rule : ann -> ann -> option (ann * option Z * option Z)) (ev : value -> value -> res value) a b :
  (forall la ra r cl cr, rule la ra = Some (r, cl, cr) ->
     ann_inv la -> ann_inv ra -> aovf la = false -> aovf ra = false ->
     ann_inv r /\ forall va vb, val_ok la va -> val_ok ra vb -> res_ok r (ev va vb)) ->
  sound_at a -> sound_at b -> forall E st r0 l,
  match tc strict' E a, tc strict' E b with
  | Some ra, Some rb =>
      if negb (okc strict' ra && okc strict' rb) then None else
      match rule (fst ra) (fst rb) with
      | Some (r, cl, cr) =>
          if enforce_ok strict' cl ra && enforce_ok strict' cr rb
          then Some (r, flat (enforce cl ra) ++ flat (enforce cr rb)) else None
      | None => None
      end
  | _, _ => None
  end = Some (r0, l) ->
  castfree a && castfree b = true -> env_ok E st ->
  ann_inv r0 /\ res_ok r0 (bind (eval (tsig E) st a) (fun x => bind (eval (tsig E) st b) (fun y => ev x y))).
Proof.
  intros Hrule IHa IHb E st r0 l Htc Hcf Henv. apply andb_prop in Hcf as [Hca Hcb].
  destruct (tc strict' E a) as [[ra la]|] eqn:Ta; [|discriminate].
  destruct (tc strict' E b) as [[rb lb]|] eqn:Tb; [|discriminate]. cbn [fst] in Htc.
  destruct (okc strict' (ra, la) && okc strict' (rb, lb)) eqn:Ok; [|discriminate]. cbn [negb] in Htc.
  apply andb_prop in Ok as [Oa Ob]. apply okc_true in Oa, Ob. cbn [fst] in Oa, Ob.
  destruct (rule ra rb) as [[[r cl] cr]|] eqn:R; [|discriminate].
  destruct (enforce_ok strict' cl (ra, la) && enforce_ok strict' cr (rb, lb)); [|discriminate]. injection Htc as <- <-.
  destruct (IHa E st ra la Ta Hca Henv) as [Ia Ra]. destruct (IHb E st rb lb Tb Hcb Henv) as [Ib Rb].
  destruct (Hrule ra rb r cl cr R Ia Ib Oa Ob) as [Ir Hr]. split; [exact Ir|].
  apply (res_ok_bind ra); [exact Ra|]. intros va _ Va. apply (res_ok_bind rb); [exact Rb|]. intros vb _ Vb.
  exact (Hr va vb Va Vb).
Qed.

Lemma sound_bin op a b : sound_at a -> sound_at b -> sound_at (EBin op a b).
Proof. intros IHa IHb. exact (sound_binary (rule_bin strict' op) (eval_bin op) a b (rule_bin_sound op) IHa IHb). Qed.

Lemma sound_cmp op a b : sound_at a -> sound_at b -> sound_at (ECmp op a b).
Proof. intros IHa IHb. exact (sound_binary rule_cmp (eval_cmp op) a b (rule_cmp_sound op) IHa IHb). Qed.

Lemma sound_inv a : sound_at a -> sound_at (EInv a).
Proof.
  intros IHa E st r0 l Htc Hcf Henv. cbn [tc] in Htc. cbn [eval castfree] in *.
  destruct (tc strict' E a) as [[ra la]|] eqn:Ta; [|discriminate]. cbn [fst] in Htc.
  destruct (is_struct ra); [discriminate|]. cbn [andb] in Htc.
  destruct (aint ra) eqn:Ai; [discriminate|]. injection Htc as <- <-.
  destruct (IHa E st ra la Ta Hcf Henv) as [(Pa & I2 & I3 & I4) Ra].
  assert (Ex : aex ra = true) by (destruct (aex ra); [reflexivity|rewrite I2 in Ai; auto; discriminate]).
  split.
  - unfold ann_inv; cbn. rewrite Ex. repeat split; auto; discriminate.
  - apply (res_ok_bind ra); [exact Ra|]. intros [n u|z] _ Va.
    + apply val_ok_bits in Va as (_ & -> & Wa & Ua). cbn. pose proof (spec_invert_range _ _ Wa Ua).
      unfold wfn, inrange in *. repeat split; auto; lia.
    + apply val_ok_int in Va as [_ Va]. congruence.
Qed.

Lemma sound_ext a n : sound_at a -> sound_at (EZext n a) /\ sound_at (ESext n a) /\ sound_at (ETrunc n a).
Proof.
  intros IHa. split; [|split]; intros E st r0 l Htc Hcf Henv; cbn [tc] in Htc; cbn [eval castfree] in *;
    (destruct (tc strict' E a) as [[ra la]|] eqn:Ta; [|discriminate]); cbn [fst] in Htc.
  - destruct (is_struct ra || (n <? aw ra) || (strict' 6%nat && negb (n <? 1024)) || negb (okc strict' (ra, la))) eqn:C; [discriminate|].
    injection Htc as <- <-. cbn in C. destruct (IHa E st ra la Ta Hcf Henv) as [(Pa & _) Ra].
    split; [apply ann_inv_mk; lia|].
    apply (res_ok_bind ra); [exact Ra|]. intros [m u|z] _ Va; [|exact I].
    apply val_ok_bits in Va as (_ & -> & Wa & Ua). cbn [eval_ext]. rewrite zext_ok by (auto; lia). cbn.
    pose proof (pow2_le_mono (aw ra) n ltac:(lia)). unfold wfn, inrange in *. repeat split; auto; lia.
  - destruct (is_struct ra || (n <? aw ra) || (strict' 6%nat && negb (n <? 1024)) || negb (okc strict' (ra, la))) eqn:C; [discriminate|].
    injection Htc as <- <-. cbn in C. destruct (IHa E st ra la Ta Hcf Henv) as [(Pa & _) Ra].
    split; [apply ann_inv_mk; lia|].
    apply (res_ok_bind ra); [exact Ra|]. intros [m u|z] _ Va; [|exact I].
    apply val_ok_bits in Va as (_ & -> & Wa & Ua). cbn [eval_ext]. rewrite (proj1 (sext_ok _ _ n Wa Ua ltac:(lia))).
    apply val_ok_vbits; cbn; [reflexivity|reflexivity|unfold wfn in *; lia|apply Z.mod_pos_bound, pow2_gt0; lia].
  - destruct (is_struct ra || (aw ra <? n) || (n <? 1) || negb (okc strict' (ra, la))) eqn:C; [discriminate|].
    injection Htc as <- <-. destruct (IHa E st ra la Ta Hcf Henv) as [(Pa & _) Ra].
    split; [apply ann_inv_mk; lia|].
    apply (res_ok_bind ra); [exact Ra|]. intros [m u|z] _ Va; [|exact I].
    apply val_ok_bits in Va as (_ & -> & Wa & Ua). cbn [eval_ext]. unfold wfn in Wa. rewrite trunc_ok by lia.
    apply val_ok_vbits; cbn; [reflexivity|reflexivity|unfold wfn; lia|apply Z.mod_pos_bound, pow2_gt0; lia].
Qed.

Lemma sound_red op a : sound_at a -> sound_at (ERed op a).
Proof.
  intros IHa E st r0 l Htc Hcf Henv. cbn [tc] in Htc. cbn [eval castfree] in *.
  destruct (tc strict' E a) as [[ra la]|] eqn:Ta; [|discriminate]. cbn [fst] in Htc.
  destruct (is_struct ra || negb (okc strict' (ra, la))); [discriminate|]. injection Htc as <- <-.
  destruct (IHa E st ra la Ta Hcf Henv) as [_ Ra].
  split; [apply ann_inv_mk; lia|].
  apply (res_ok_bind ra); [exact Ra|]. intros [m u|z] _ Va; cbn [eval_red].
  - destruct op; cbn [h_reduce_and h_reduce_or h_reduce_xor fst snd]; apply val_ok_bit; auto using b2z_range, land1_range.
  - destruct op; [exact I| |destruct (z <? 0); [exact I|]]; apply val_ok_bit; auto using b2z_range, land1_range.
Qed.

Lemma sound_ifexp c a b : sound_at c -> sound_at a -> sound_at b -> sound_at (EIf c a b).
Proof.
  intros IHc IHa IHb E st r0 l Htc Hcf Henv. cbn [tc] in Htc. cbn [eval castfree] in *.
  apply andb_prop in Hcf as [Hcf Hcb]. apply andb_prop in Hcf as [Hcc Hca].
  destruct (tc strict' E c) as [[rc lc]|] eqn:Tc; [|discriminate].
  destruct (tc strict' E a) as [[ra la]|] eqn:Ta; [|discriminate].
  destruct (tc strict' E b) as [[rb lb]|] eqn:Tb; [|discriminate].
  destruct (okc strict' (rc, lc) && okc strict' (ra, la) && okc strict' (rb, lb)) eqn:Ok; [|discriminate]. cbn [negb fst] in Htc.
  apply andb_prop in Ok as [Ok Ob]. apply andb_prop in Ok as [Oc Oa]. apply okc_true in Oa, Ob. cbn [fst] in *.
  destruct (rule_if strict' rc ra rb) as [[[r cl] cr]|] eqn:R; [|discriminate].
  destruct (enforce_ok strict' cl (ra, la) && enforce_ok strict' cr (rb, lb)); [|discriminate]. injection Htc as <- <-.
  destruct (IHc E st rc lc Tc Hcc Henv) as [_ Rc].
  destruct (IHa E st ra la Ta Hca Henv) as [Ia Ra]. destruct (IHb E st rb lb Tb Hcb Henv) as [Ib Rb].
  destruct (rule_if_sound rc ra rb r cl cr R Ia Ib Oa Ob) as (Ir & Ha & Hb).
  split; [exact Ir|].
  apply (res_ok_bind rc); [exact Rc|]. intros vc _ _.
  destruct (truthy vc); [apply (res_ok_weaken ra)|apply (res_ok_weaken rb)]; auto.
Qed.

Lemma sound_tmp i : sound_at (ETmp i).
Proof.
  intros E st r0 l Htc Hcf [Ht _]. cbn [tc] in Htc. cbn [eval].
  destruct (ttmp E i) as [[[[w ex] mi] bo]|] eqn:T; [|discriminate]. injection Htc as <- <-.
  destruct (Ht i w ex mi bo T) as (Pw & Hm & Hv). split.
  - unfold ann_inv; cbn. repeat split; auto; discriminate.
  - destruct (tmpv st i) as [v|] eqn:V; cbn; [apply Hv; reflexivity|exact I].
Qed.

Lemma sound_loop i : sound_at (ELoop i).
Proof.
  intros E st r0 l Htc Hcf [_ Hl]. cbn [tc] in Htc. cbn [eval].
  destruct (tloop E i) as [w|] eqn:T; [|discriminate]. injection Htc as <- <-.
  destruct (Hl i w T) as (Pw & Hv). split.
  - unfold ann_inv, mk; cbn. repeat split; auto; discriminate.
  - destruct (loopv st i) as [z|] eqn:V; cbn; [|exact I]. specialize (Hv z eq_refl). repeat split; auto; try lia; discriminate.
Qed.

Lemma sound_cast n a : sound_at (ECast n a).
Proof. intros E st r0 l Htc Hcf. cbn in Hcf. discriminate. Qed.

Lemma sound_idx a i : sound_at a -> sound_at i -> sound_at (EIdx a i).
Proof.
  intros IHa IHi E st r0 l Htc Hcf Henv. cbn [tc] in Htc. cbn [eval castfree] in *.
  apply andb_prop in Hcf as [Hca Hci].
  destruct (tc strict' E a) as [[ra la]|] eqn:Ta; [|discriminate].
  destruct (tc strict' E i) as [[ri li]|] eqn:Ti; [|discriminate]. cbn [fst] in Htc. cbn zeta in Htc.
  destruct (negb (asig ra) || is_struct ra || is_struct ri || negb (okc strict' (ra, la))); [discriminate|].
  destruct (index_ext (aw ra) ri true) as [c|]; [|discriminate].
  destruct (match acv ri with Some k => (0 <=? k) && (k <? aw ra) | None => true end && enforce_ok strict' c (ri, li)); [|discriminate].
  injection Htc as <- <-.
  destruct (IHa E st ra la Ta Hca Henv) as [_ Ra]. destruct (IHi E st ri li Ti Hci Henv) as [_ Ri].
  split; [apply ann_inv_mk; lia|].
  apply (res_ok_bind ra); [exact Ra|]. intros va _ Va. apply (res_ok_bind ri); [exact Ri|]. intros vi _ Vi.
  destruct va as [n u|z]; [|exact I]. cbn [eval_index spec_getitem].
  destruct ((0 <=? value_int vi) && (value_int vi <? n)); [|exact I].
  cbn [vbits bind fst snd res_ok]. apply val_ok_bit; auto using mod2_range.
Qed.

(* the two forms of a slice the checker accepts: constant bounds, or a[x : x+k] with a constant k *)
Lemma slice_width_inv chk tcf wA rl rh lo hi w : slice_width chk tcf wA rl rh lo hi = Some w ->
  (exists l h, acv rl = Some l /\ acv rh = Some h /\ 0 <= l < h /\ h <= wA /\ w = h - l) \/
  (exists y ry, hi = EBin Add lo y /\ (chk 12%nat = true -> exists k, y = ELit k \/ y = EFree k) /\
                tcf y = Some ry /\ acv (fst ry) = Some w /\ 0 < w).
Proof.
  unfold slice_width. intros H.
  (* the x : x+k branch occurs twice in the match on the two constants; it is treated once *)
  match type of H with match acv rl with Some _ => _ | None => ?d end = _ => set (stride := d) in H end.
  assert (Stride : stride = Some w -> exists y ry, hi = EBin Add lo y /\
            (chk 12%nat = true -> exists k, y = ELit k \/ y = EFree k) /\ tcf y = Some ry /\ acv (fst ry) = Some w /\ 0 < w).
  { clear H. subst stride. intros H. destruct hi as [| | | | |op x y| | | | | | | | | | | |]; try discriminate H.
    destruct op; try discriminate H.
    destruct (chk 12%nat && negb match y with ELit _ | EFree _ => true | _ => false end) eqn:C12; [discriminate|].
    destruct (tcf y) as [ry|] eqn:T; [|discriminate]. destruct (acv (fst ry)) as [k|] eqn:K; [|discriminate].
    destruct (expr_eqb lo x && (0 <? k)) eqn:C; [|discriminate]. injection H as <-.
    apply andb_prop in C as [C1 C2]. apply expr_eqb_eq in C1. subst x.
    exists y, ry. repeat split; auto; [|lia]. intros C12'. rewrite C12' in C12. destruct y; try discriminate C12; eauto. }
  destruct (acv rl) as [l|]; [destruct (acv rh) as [h|]|]; [left|right; exact (Stride H)..].
  destruct ((0 <=? l) && (l <? h) && (h <=? wA)) eqn:C; [|discriminate]. injection H as <-.
  exists l, h. repeat split; auto; lia.
Qed.

Lemma slice_width_pos chk tcf wA rl rh lo hi w : slice_width chk tcf wA rl rh lo hi = Some w -> 0 < w.
Proof. intros H. destruct (slice_width_inv _ _ _ _ _ _ _ _ H) as [(l & h & _ & _ & ? & _ & ->)|(y & ry & _ & _ & _ & _ & ?)]; lia. Qed.

Lemma slice_width_sound E st rl rh lo hi wA w zl zh :
  slice_width strict' (tc strict' E) wA rl rh lo hi = Some w ->
  ann_inv rl -> ann_inv rh -> val_ok rl (VInt zl) -> val_ok rh (VInt zh) ->
  eval (tsig E) st lo = Ok (VInt zl) -> eval (tsig E) st hi = Ok (VInt zh) ->
  zh - zl = w.
Proof.
  intros H Il Ih Vl Vh El Eh.
  destruct (slice_width_inv _ _ _ _ _ _ _ _ H) as [(l & h & Cl & Ch & _ & _ & ->)|(y & ry & -> & Hy & Ty & Ky & _)].
  - rewrite (val_ok_cv _ _ _ Vl Il Cl), (val_ok_cv _ _ _ Vh Ih Ch). reflexivity.
  - (* (S12): k is a literal, so it evaluates to the constant the checker recorded *)
    destruct (Hy eq_refl) as [k Hk].
    assert (T : tc strict' E y = if k <? 0 then None else Some (lit_ann k, [])) by (destruct Hk as [-> | ->]; reflexivity).
    assert (V : eval (tsig E) st y = Ok (VInt k)) by (destruct Hk as [-> | ->]; reflexivity).
    rewrite T in Ty. destruct (k <? 0); [discriminate|]. injection Ty as <-. injection Ky as <-.
    cbn [eval] in Eh. rewrite El, V in Eh. injection Eh as <-. lia.
Qed.

Lemma sound_slice a lo hi : sound_at a -> sound_at lo -> sound_at hi -> sound_at (ESlice a lo hi).
Proof.
  intros IHa IHl IHh E st r0 l Htc Hcf Henv. cbn [tc] in Htc. cbn [eval castfree] in *.
  apply andb_prop in Hcf as [Hcf Hch]. apply andb_prop in Hcf as [Hca Hcl].
  destruct (tc strict' E a) as [[ra la]|] eqn:Ta; [|discriminate].
  destruct (tc strict' E lo) as [[rl ll]|] eqn:Tl; [|discriminate].
  destruct (tc strict' E hi) as [[rh lh]|] eqn:Th; [|discriminate]. cbn [fst] in Htc. cbn zeta in Htc.
  destruct (negb (asig ra) || is_struct ra || is_struct rl || is_struct rh || negb (okc strict' (ra, la))); [discriminate|].
  cbn [andb] in Htc. destruct (aex rl || aex rh) eqn:S12; [discriminate|]. apply orb_false_elim in S12 as [Exl Exh].
  destruct (acv ra); [discriminate|].
  destruct (index_ext (aw ra) rl true) as [c1|]; [|discriminate].
  destruct (index_ext (aw ra) rh false) as [c2|]; [|discriminate].
  destruct (slice_width strict' (tc strict' E) (aw ra) rl rh lo hi) as [w|] eqn:SW; [|discriminate].
  destruct (enforce_ok strict' c1 (rl, ll) && enforce_ok strict' c2 (rh, lh)); [|discriminate]. injection Htc as <- <-.
  destruct (IHa E st ra la Ta Hca Henv) as [_ Ra].
  destruct (IHl E st rl ll Tl Hcl Henv) as [Il Rl]. destruct (IHh E st rh lh Th Hch Henv) as [Ih Rh].
  pose proof (slice_width_pos _ _ _ _ _ _ _ _ SW) as Pw. split; [exact (ann_inv_mk _ _ _ _ Pw)|].
  apply (res_ok_bind ra); [exact Ra|]. intros va _ Va.
  apply (res_ok_bind rl); [exact Rl|]. intros vl El Vl.
  apply (res_ok_bind rh); [exact Rh|]. intros vh Eh Vh.
  destruct (val_ok_implicit _ _ Vl Exl) as [zl ->]. destruct (val_ok_implicit _ _ Vh Exh) as [zh ->].
  pose proof (slice_width_sound E st rl rh lo hi (aw ra) w zl zh SW Il Ih Vl Vh El Eh) as Hw.
  destruct va as [n u|z]; [|exact I]. apply val_ok_bits in Va as (_ & -> & Wa & Ua).
  cbn [eval_slice spec_getitem step_trivial negb bound value_int].
  destruct (valid_rangeP (aw ra) zl zh) as [[V1 V2]|]; [|exact I].
  apply val_ok_vbits; cbn; [exact Hw|reflexivity|unfold wfn in *; lia|apply Z.mod_pos_bound, pow2_gt0; lia].
Qed.

(* literally the anonymous [fix] in [castfree (EConcat es)], so that [change] can name it *)
Definition castfree_list := fix go (l : list expr) : bool := match l with [] => true | x :: r => castfree x && go r end.

Lemma concat_list_sound E st es : Forall sound_at es -> env_ok E st ->
  forall w ns, tc_list (tc strict' E) (okc strict') es = Some (w, ns) -> castfree_list es = true ->
    0 <= w /\ (es <> [] -> 0 < w) /\
    match eval_list (eval (tsig E) st) es with
    | Ok vs => match bits_list vs with
               | Some xs => Forall (fun x => 0 < fst x /\ 0 <= snd x < 2 ^ fst x) xs /\ fold_right Z.add 0 (map fst xs) = w
               | None => True end
    | Err EValue => False
    | Err _ => True
    end.
Proof.
  intros HF Henv. induction HF as [|x r Hx Hr IH]; intros w ns Htc Hcf.
  - cbn in Htc. injection Htc as <- <-. cbn. repeat split; auto; try lia. congruence.
  - cbn [tc_list] in Htc. cbn [castfree_list] in Hcf. apply andb_prop in Hcf as [Hcx Hcr].
    destruct (tc strict' E x) as [[rx lx]|] eqn:Tx; [|discriminate].
    destruct (tc_list (tc strict' E) (okc strict') r) as [[w' ns']|] eqn:Tr; [|discriminate]. cbn [fst] in Htc.
    destruct (is_struct rx || negb (okc strict' (rx, lx))); [discriminate|]. injection Htc as <- <-.
    destruct (Hx E st rx lx Tx Hcx Henv) as [(Px & _) Rx].
    destruct (IH w' ns' eq_refl Hcr) as (Pw & _ & Hev).
    split; [lia|]. split; [intros _; lia|].
    cbn [eval_list]. destruct (eval (tsig E) st x) as [v|e] eqn:Ex; cbn [bind]; [|destruct e; cbn in *; auto].
    cbn [res_ok] in Rx.
    destruct (eval_list (eval (tsig E) st) r) as [vs|e] eqn:Er; cbn [bind]; [|destruct e; auto].
    cbn [bits_list]. destruct v as [n u|z]; [|exact I].
    apply val_ok_bits in Rx as (_ & -> & Wn & Un).
    destruct (bits_list vs) as [xs|]; [|exact I]. destruct Hev as [Hxs Hsum].
    split; [constructor; [cbn; unfold wfn, inrange in *; lia|exact Hxs]|]. cbn. lia.
Qed.

Lemma sound_concat es : Forall sound_at es -> sound_at (EConcat es).
Proof.
  intros HF E st r0 l Htc Hcf Henv. cbn [tc] in Htc. cbn [eval]. change (castfree (EConcat es)) with (castfree_list es) in Hcf.
  destruct (tc_list (tc strict' E) (okc strict') es) as [[w ns]|] eqn:TL; [|discriminate].
  destruct (concat_list_sound E st es HF Henv w ns TL Hcf) as (Pw & Pw' & Hev).
  destruct es as [|x r]; [discriminate|]. cbn [andb] in Htc.
  destruct (w <? 1024) eqn:W; [|discriminate]. cbn [negb] in Htc. injection Htc as <- <-.
  specialize (Pw' ltac:(discriminate)).
  split; [apply ann_inv_mk; lia|].
  destruct (eval_list (eval (tsig E) st) (x :: r)) as [vs|e]; cbn [bind]; [|destruct e; auto].
  unfold eval_concat. destruct (bits_list vs) as [xs|]; [|exact I]. destruct Hev as [Hxs Hsum].
  pose proof (concat_spec_range xs Hxs) as [_ Hu]. rewrite <- concat_width_sum in Hsum.
  rewrite concat_ok by (auto; lia). cbn. rewrite Hsum in *.
  unfold wfn, inrange in *. repeat split; auto; lia.
Qed.

Theorem tc_sound_gen : forall e, sound_at e.
Proof.
  induction e using expr_ind'.
  - apply sound_sig. - (* ELit *) apply sound_lit. - apply sound_sized. - (* EFree *) apply sound_lit. - apply sound_cast.
  - apply sound_bin; assumption. - apply sound_cmp; assumption. - apply sound_inv; assumption.
  - apply sound_slice; assumption. - apply sound_idx; assumption. - apply sound_concat; assumption.
  - (* EZext *) apply sound_ext; assumption. - (* ESext *) apply sound_ext; assumption. - (* ETrunc *) apply sound_ext; assumption.
  - apply sound_red; assumption. - apply sound_ifexp; assumption. - apply sound_tmp. - apply sound_loop.
Qed.

(* the statement of the property: widths are the real widths, no width error *)
Theorem tc_sound E st e a l :
  tc strict E e = Some (a, l) -> castfree e = true -> env_ok E st ->
  eval (tsig E) st e <> Err EValue /\
  (forall n u, eval (tsig E) st e = Ok (VBits n u) -> n = aw a /\ 0 < n < 1024 /\ 0 <= u < 2 ^ n) /\
  (forall z, eval (tsig E) st e = Ok (VInt z) -> 0 <= z /\ (aovf a = false -> z < 2 ^ aw a)).
Proof.
  intros Htc Hcf Henv. destruct (tc_sound_gen e E st a l Htc Hcf Henv) as [_ R].
  destruct (eval (tsig E) st e) as [v|er]; cbn in R.
  - split; [discriminate|]. split.
    + intros n u [= ->]. cbn in R. unfold wfn, inrange in R. intuition.
    + intros z [= ->]. cbn in R. intuition.
  - split; [destruct er; try discriminate; contradiction|]. split; intros; discriminate.
Qed.

Definition children (e : expr) : list expr :=
  match e with
  | ESig _ _ | ELit _ | ESized _ _ | EFree _ | ETmp _ | ELoop _ => []
  | ECast _ a | EInv a | EZext _ a | ESext _ a | ETrunc _ a | ERed _ a => [a]
  | EBin _ a b | ECmp _ a b | EIdx a b => [a; b]
  | ESlice a b c | EIf a b c => [a; b; c]
  | EConcat es => es
  end.

Inductive subexpr : expr -> expr -> Prop :=
| sub_refl e : subexpr e e
| sub_step e' c e : subexpr e' c -> In c (children e) -> subexpr e' e.

Lemma tc_list_in chk E es w ns : tc_list (tc chk E) (okc chk) es = Some (w, ns) ->
  forall c, In c es -> exists r, tc chk E c = Some r.
Proof.
  revert w ns. induction es as [|x r IH]; intros w ns H c Hc; [contradiction|].
  cbn [tc_list] in H. destruct (tc chk E x) as [rx|] eqn:Tx; [|discriminate].
  destruct (tc_list (tc chk E) (okc chk) r) as [[w' ns']|] eqn:Tr; [|discriminate].
  destruct Hc as [<-|Hc]; [eauto|]. eapply IH; eauto.
Qed.

(* every clause of [tc] first matches on [tc] of each child, and a [None] there gives [None] *)
Lemma tc_children chk E e r : tc chk E e = Some r -> forall c, In c (children e) -> exists r', tc chk E c = Some r'.
Proof.
  intros H c Hc. destruct e; cbn [children] in Hc; cbn [tc] in H;
    repeat match goal with
           | H : In _ [] |- _ => contradiction
           | H : In _ (_ :: _) |- _ => destruct H as [<- | H]
           | H : match tc chk E ?x with Some _ => _ | None => _ end = Some _ |- _ =>
               let T := fresh "T" in destruct (tc chk E x) eqn:T; [|discriminate]
           end; eauto.
  (* EConcat *)
  destruct (tc_list (tc chk E) (okc chk) es) as [[w ns]|] eqn:TL; [|discriminate].
  eapply tc_list_in; eauto.
Qed.

Lemma castfree_children e : castfree e = true -> forall c, In c (children e) -> castfree c = true.
Proof.
  intros H c Hc. destruct e; cbn [children] in Hc; cbn [castfree] in H; try discriminate;
    repeat match goal with
           | H : In _ [] |- _ => contradiction
           | H : In _ (_ :: _) |- _ => destruct H as [<- | H]
           | H : _ && _ = true |- _ => apply andb_prop in H as [? ?]
           end; auto.
  change (castfree_list es = true) in H. induction es as [|x r IH]; [contradiction|].
  cbn in H. apply andb_prop in H as [Hx Hr]. destruct Hc as [<-|Hc]; auto.
Qed.

Theorem tc_sound_sub E st e a l e' :
  tc strict E e = Some (a, l) -> castfree e = true -> env_ok E st -> subexpr e' e ->
  exists a' l', tc strict E e' = Some (a', l') /\
    eval (tsig E) st e' <> Err EValue /\
    (forall n u, eval (tsig E) st e' = Ok (VBits n u) -> n = aw a' /\ 0 < n < 1024 /\ 0 <= u < 2 ^ n) /\
    (forall z, eval (tsig E) st e' = Ok (VInt z) -> 0 <= z /\ (aovf a' = false -> z < 2 ^ aw a')).
Proof.
  intros Htc Hcf Henv Hs. revert a l Htc Hcf. induction Hs as [e|e' c e Hs IH Hin]; intros a l Htc Hcf.
  - exists a, l. split; [exact Htc|]. eapply tc_sound; eauto.
  - destruct (tc_children _ _ _ _ Htc c Hin) as [[a' l'] Tc].
    exact (IH a' l' Tc (castfree_children e Hcf c Hin)).
Qed.

Lemma assign_sig_ctx rl r ns : assign_sig strict' rl r = Some ns -> ctx_ok (aw (fst rl)) (fst r).
Proof.
  unfold assign_sig, ctx_ok. cbn zeta.
  destruct (astr (fst rl)) as [x|], (astr (fst r)) as [y|]; try discriminate.
  - destruct (Nat.eqb x y && (aw (fst rl) =? aw (fst r))) eqn:C; [|discriminate]. intros _.
    apply andb_prop in C as [_ C]. destruct (aex (fst r)); lia.
  - destruct (aex (fst r)) eqn:Ex; cbn [negb andb].
    + destruct (negb (aw (fst r) =? aw (fst rl))) eqn:C1; [discriminate|]. intros _. lia.
    + intros H'. destruct (aw (fst rl) <? aw (fst r)) eqn:C2; [|lia].
      (* (S1) rejects: whichever way the guard before it goes, the result is None *)
      exfalso. revert H'.
      match goal with |- context [if ?c then None else None] => destruct c end; discriminate.
Qed.

Lemma tc_assign_nontmp chk E l e le : lhs_expr l = Some le ->
  tc_assign chk E l e =
  match tc chk E e with
  | None => None
  | Some r => if chk 3%nat && aovf (fst r) then None else
              match tc chk E le with
              | None => None
              | Some rl => match assign_sig chk rl r with Some ns => Some (E, ns) | None => None end
              end
  end.
Proof. intros H. destruct l; try discriminate H; injection H as <-; reflexivity. Qed.

Lemma tc_assign_sig E l e le E' ns :
  tc_assign strict' E l e = Some (E', ns) -> lhs_expr l = Some le ->
  exists rl r, tc strict' E le = Some rl /\ tc strict' E e = Some r /\ E' = E /\
               aovf (fst r) = false /\ ctx_ok (aw (fst rl)) (fst r).
Proof.
  intros H Hl. rewrite (tc_assign_nontmp _ E l e le Hl) in H.
  destruct (tc strict' E e) as [r|] eqn:Te; [|discriminate]. cbn [andb] in H.
  destruct (aovf (fst r)) eqn:Ov; [discriminate|].
  destruct (tc strict' E le) as [rl|] eqn:Tl; [|discriminate].
  destruct (assign_sig strict' rl r) as [ns'|] eqn:A; [|discriminate]. injection H as <- <-.
  exists rl, r. repeat split; auto. eapply assign_sig_ctx; eauto.
Qed.

Lemma val_ok_store w R v : val_ok R v -> 0 < aw R -> aovf R = false -> ctx_ok w R -> wfn w ->
  exists u, spec_store w (to_operand v) = Ok u /\ inrange w u.
Proof.
  intros Hv Pr Ov Hc Ww. pose proof (val_ok_fits R v w Hv Pr Ov Hc) as F.
  destruct v as [n u|z]; cbn [to_operand fitsw] in *.
  - destruct F as [-> Hu]. cbn [spec_store]. rewrite Z.eqb_refl. eauto.
  - unfold wfn in Ww. assert (0 <= 2 ^ (w - 1)) by (apply Z.pow_nonneg; lia). rewrite spec_store_int by lia.
    eexists; split; [reflexivity|]. unfold inrange. rewrite Z.mod_small; lia.
Qed.

Definition castfree_lhs (l : lhs) : bool :=
  match l with
  | LSig _ _ | LTmp _ => true
  | LSlice _ _ lo hi => castfree lo && castfree hi
  | LIndex _ _ i => castfree i
  end.

Lemma env_ok_same E st st' : tmpv st' = tmpv st -> loopv st' = loopv st -> env_ok E st -> env_ok E st'.
Proof. intros Ht Hl [H1 H2]. split; intros; rewrite ?Ht, ?Hl; eauto. Qed.

Lemma res_ok_not_evalue a r : res_ok a r -> r <> Err EValue.
Proof. destruct r as [|[]]; cbn; try discriminate; contradiction. Qed.

Lemma tc_assign_tmp E i e E' ns :
  tc_assign strict' E (LTmp i) e = Some (E', ns) ->
  exists R lr, tc strict' E e = Some (R, lr) /\ aovf R = false /\
    E' = set_ttmp E i (aw R, aex R, aint R, abool R) /\
    (forall w ex mi bo, ttmp E i = Some (w, ex, mi, bo) -> w = aw R /\ ex = aex R /\ mi = aint R).
Proof.
  unfold tc_assign. destruct (tc strict' E e) as [[R lr]|] eqn:Te; [|discriminate]. cbn [fst andb].
  destruct (aovf R) eqn:Ov; [discriminate|]. destruct (is_struct R); [discriminate|].
  destruct (ttmp E i) as [[[[w ex] mi] bo]|] eqn:T.
  - destruct (negb (w =? aw R)) eqn:C1; [discriminate|].
    destruct (negb (eqb ex (aex R) && eqb mi (aint R))) eqn:C2; [discriminate|]. intros [= <- _].
    apply negb_false_iff in C2. apply andb_prop in C2 as [C2 C3]. apply eqb_prop in C2, C3.
    exists R, lr. split; [reflexivity|]. split; [exact Ov|]. split; [reflexivity|].
    intros w' ex' mi' bo' [= <- <- <- <-]. split; [lia|]. split; assumption.
  - intros [= <- _]. exists R, lr. split; [reflexivity|]. split; [exact Ov|]. split; [reflexivity|]. intros w' ex' mi' bo' H; discriminate H.
Qed.

Lemma castfree_lhs_expr l le : lhs_expr l = Some le -> castfree_lhs l = true -> castfree le = true.
Proof. destruct l; intros [= <-] H; cbn [castfree andb]; [reflexivity|exact H|exact H]. Qed.

(* Typing is needed only to exclude the width error: each place where [exec_assign_cases] says one can arise is
   covered by the soundness of the right-hand side, of the target read as an expression, or by [val_ok_store]. *)
Lemma assign_no_width_error E st lbl l e blocking E' ns :
  tc_assign strict' E l e = Some (E', ns) -> castfree e = true -> castfree_lhs l = true -> env_ok E st ->
  match exec_assign (tsig E) st lbl l e blocking with Err EValue => False | _ => True end.
Proof.
  intros H Hce Hcl Henv.
  pose proof (exec_assign_cases (tsig E) st lbl l e blocking) as X.
  destruct (exec_assign (tsig E) st lbl l e blocking) as [st'|[]]; try exact I.
  assert (Te : exists R lr, tc strict' E e = Some (R, lr))
    by (unfold tc_assign in H; destruct (tc strict' E e) as [[R lr]|]; [eauto|discriminate H]).
  destruct Te as (R & lr & Te). destruct (tc_sound_gen e E st R lr Te Hce Henv) as [(PR & _) RR].
  destruct (lhs_expr l) as [le|] eqn:Hl; [|rewrite X in RR; exact RR].
  destruct (tc_assign_sig E l e le E' ns H Hl) as ([L ll] & r & Tl & Te' & _ & Ov & Hc).
  rewrite Te in Te'. injection Te' as <-. cbn [fst] in *.
  destruct (tc_sound_gen le E st L ll Tl (castfree_lhs_expr l le Hl Hcl) Henv) as [_ RL].
  destruct X as [Ee|[El|(w & u & v & El & Ee & S)]].
  - rewrite Ee in RR. exact RR.
  - rewrite El in RL. exact RL.
  - rewrite El in RL. rewrite Ee in RR. apply val_ok_bits in RL as (_ & -> & Wl & _).
    destruct (val_ok_store (aw L) R v RR PR Ov Hc Wl) as (u' & Hu & _). rewrite Hu in S. discriminate S.
Qed.

Theorem tc_assign_sound E st lbl l e blocking E' ns :
  tc_assign strict' E l e = Some (E', ns) -> castfree e = true -> castfree_lhs l = true -> env_ok E st ->
  match exec_assign (tsig E) st lbl l e blocking with Ok st' => env_ok E' st' | Err EValue => False | Err _ => True end.
Proof.
  intros H Hce Hcl Henv. pose proof (assign_no_width_error E st lbl l e blocking E' ns H Hce Hcl Henv) as N.
  pose proof (exec_assign_cases (tsig E) st lbl l e blocking) as C.
  destruct (exec_assign (tsig E) st lbl l e blocking) as [st'|er]; [|destruct er; auto]. destruct C as [Pl Pt].
  destruct l as [s p|s p lo hi|s p ix|i];
    try (destruct (tc_assign_sig E _ e _ E' ns H eq_refl) as (_ & _ & _ & _ & -> & _);
         exact (env_ok_same E st st' Pt Pl Henv)).
  destruct (tc_assign_tmp E i e E' ns H) as (R & lr & Te & Ov & -> & Hsame). destruct Pt as (v & Ev & Pt).
  destruct (tc_sound_gen e E st R lr Te Hce Henv) as [(PR & I2 & _) Hv]. rewrite Ev in Hv. destruct Henv as [H1 H2]. split.
  - intros j w ex mi bo. cbn. unfold upd_t. rewrite Pt. unfold upd. destruct (Nat.eqb j i).
    + intros [= <- <- <- <-]. split; [exact PR|]. split; [exact I2|]. intros v' [= <-]. exact (val_ok_tmp R v _ Hv Ov).
    + apply H1.
  - intros j w T. rewrite Pl. exact (H2 j w T).
Qed.

(* completeness: a width mismatch between explicitly sized operands is rejected.
   Static form, for every setting of the extra checks (in particular for [impl], the model of the code) *)
Lemma unify_mismatch la ra ifx : aex la = true -> aex ra = true -> aw la <> aw ra -> unify la ra ifx = None.
Proof.
  intros El Er Hw. unfold unify. rewrite El, Er. destruct (aw la =? aw ra) eqn:C; [lia|]. rewrite andb_false_r. reflexivity.
Qed.

Theorem tc_complete_bin chk E op a b ra rb :
  tc chk E a = Some ra -> tc chk E b = Some rb ->
  aex (fst ra) = true -> aex (fst rb) = true -> aw (fst ra) <> aw (fst rb) -> is_shift op = false ->
  tc chk E (EBin op a b) = None.
Proof.
  intros Ta Tb Ea Eb Hw Sh. cbn [tc]. rewrite Ta, Tb.
  destruct (negb (okc chk ra && okc chk rb)); [reflexivity|].
  unfold rule_bin. destruct (is_struct (fst ra) || is_struct (fst rb) || is_div op); [reflexivity|].
  rewrite Sh, (unify_mismatch _ _ false Ea Eb Hw). reflexivity.
Qed.

Theorem tc_complete_cmp chk E op a b ra rb :
  tc chk E a = Some ra -> tc chk E b = Some rb ->
  aex (fst ra) = true -> aex (fst rb) = true -> aw (fst ra) <> aw (fst rb) ->
  tc chk E (ECmp op a b) = None.
Proof.
  intros Ta Tb Ea Eb Hw. cbn [tc]. rewrite Ta, Tb.
  destruct (negb (okc chk ra && okc chk rb)); [reflexivity|].
  unfold rule_cmp. destruct (is_struct (fst ra) || is_struct (fst rb)); [reflexivity|].
  rewrite (unify_mismatch _ _ false Ea Eb Hw). reflexivity.
Qed.

Theorem tc_complete_ifexp chk E c a b rc ra rb :
  tc chk E c = Some rc -> tc chk E a = Some ra -> tc chk E b = Some rb ->
  aex (fst ra) = true -> aex (fst rb) = true -> aw (fst ra) <> aw (fst rb) ->
  abool (fst ra) || abool (fst rb) = false ->      (* neither branch is a bare comparison (rdt.Bool): the code skips the check then *)
  tc chk E (EIf c a b) = None.
Proof.
  intros Tc Ta Tb Ea Eb Hw Hb. cbn [tc]. rewrite Tc, Ta, Tb.
  destruct (negb (okc chk rc && okc chk ra && okc chk rb)); [reflexivity|].
  unfold rule_if. destruct (is_struct (fst rc) || is_struct (fst ra) || is_struct (fst rb)); [reflexivity|].
  cbn zeta. rewrite Hb, andb_false_r, (unify_mismatch _ _ true Ea Eb Hw). reflexivity.
Qed.

Theorem tc_complete_assign chk E l e le rl r :
  lhs_expr l = Some le -> tc chk E le = Some rl -> tc chk E e = Some r ->
  astr (fst rl) = None -> astr (fst r) = None ->
  aex (fst r) = true -> aw (fst r) <> aw (fst rl) ->
  tc_assign chk E l e = None.
Proof.
  intros Hle Tl Te Sl Sr Er Hw. rewrite (tc_assign_nontmp chk E l e le Hle), Te, Tl.
  destruct (chk 3%nat && aovf (fst r)); [reflexivity|].
  unfold assign_sig. cbn zeta. rewrite Sl, Sr, Er. cbn [negb andb].
  destruct (aw (fst r) =? aw (fst rl)) eqn:C; [lia|reflexivity].
Qed.

(* runtime form (through the soundness theorem): if the two operands evaluate to Bits values of
   different widths — so that the simulator raises the width-mismatch ValueError — the checker rejects *)
Lemma bits_val_explicit E st a ra n u :
  tc strict' E a = Some ra -> castfree a = true -> env_ok E st -> eval (tsig E) st a = Ok (VBits n u) ->
  aex (fst ra) = true /\ aw (fst ra) = n.
Proof.
  destruct ra as [ra la]. intros Ta Ca Henv Ea. destruct (tc_sound_gen a E st ra la Ta Ca Henv) as [_ Ra].
  rewrite Ea in Ra. apply val_ok_bits in Ra as (Ex & -> & _). split; [exact Ex|reflexivity].
Qed.

Theorem tc_complete_bin_runtime E st op a b ra rb n u m v :
  tc strict E a = Some ra -> tc strict E b = Some rb -> castfree a = true -> castfree b = true -> env_ok E st ->
  eval (tsig E) st a = Ok (VBits n u) -> eval (tsig E) st b = Ok (VBits m v) -> n <> m -> is_shift op = false ->
  eval (tsig E) st (EBin op a b) = Err EValue /\ tc strict E (EBin op a b) = None.
Proof.
  intros Ta Tb Ca Cb Henv Ea Eb Hnm Sh.
  destruct (bits_val_explicit E st a ra n u Ta Ca Henv Ea) as [Xa Wa].
  destruct (bits_val_explicit E st b rb m v Tb Cb Henv Eb) as [Xb Wb]. split.
  - cbn [eval]. rewrite Ea, Eb. cbn [bind eval_bin to_operand spec_binop].
    destruct (m =? n) eqn:C; [lia|reflexivity].
  - apply (tc_complete_bin strict E op a b ra rb Ta Tb Xa Xb); [congruence|exact Sh].
Qed.

Theorem tc_complete_cmp_runtime E st op a b ra rb n u m v :
  tc strict E a = Some ra -> tc strict E b = Some rb -> castfree a = true -> castfree b = true -> env_ok E st ->
  eval (tsig E) st a = Ok (VBits n u) -> eval (tsig E) st b = Ok (VBits m v) -> n <> m ->
  eval (tsig E) st (ECmp op a b) = Err EValue /\ tc strict E (ECmp op a b) = None.
Proof.
  intros Ta Tb Ca Cb Henv Ea Eb Hnm.
  destruct (bits_val_explicit E st a ra n u Ta Ca Henv Ea) as [Xa Wa].
  destruct (bits_val_explicit E st b rb m v Tb Cb Henv Eb) as [Xb Wb]. split.
  - cbn [eval]. rewrite Ea, Eb. cbn [bind eval_cmp to_operand spec_cmp].
    destruct (m =? n) eqn:C; [lia|reflexivity].
  - apply (tc_complete_cmp strict E op a b ra rb Ta Tb Xa Xb). congruence.
Qed.

(* the statement does NOT hold for the checker as implemented ([impl]): machine-checked counterexamples for the missing
   checks (S1)-(S5) and (S10) (each is also found on the real code by harness/c10.py).  None is given for the other
   checks; of these (Sh) is the property's own exemption and (S11) concerns only the annotations left on the nodes. *)
Definition G8 : decls := [ (0%nat, [], {| fw := 8; flo := 0; fstruct := None |});      (* s.a : Bits8 in  *)
                           (1%nat, [], {| fw := 8; flo := 0; fstruct := None |});      (* s.o : Bits8 out *)
                           (2%nat, [], {| fw := 2; flo := 0; fstruct := None |});      (* s.o2 : Bits2 out *)
                           (3%nat, [], {| fw := 3; flo := 0; fstruct := None |}) ].    (* s.o3 : Bits3 out *)
Definition accepted_but_raises (b : list stmt) : Prop :=
  (exists ws, check_block impl G8 b = Some ws) /\ check_block strict G8 b = None /\
  exec_block G8 b (init_state [5; 0; 0; 0]) = Err EValue.

Example cex_S1 : accepted_but_raises [SAssign 0 (LSig 1 []) (ELit 300) true].                       (* s.o @= 300 *)
Proof. split; [eexists|split]; vm_compute; reflexivity. Qed.

Example cex_S2 : accepted_but_raises [SAssign 0 (LSig 3 []) (EBin Add (ESized 8 3) (ESized 8 4)) true].   (* s.o3 @= Bits8(3) + Bits8(4) *)
Proof. split; [eexists|split]; vm_compute; reflexivity. Qed.

Example cex_S3 : accepted_but_raises [SFor 0 0 4 1 [SAssign 0 (LSig 2 []) (EBin Add (ELoop 0) (ELit 1)) true]].  (* for i in range(4): s.o2 @= i + 1 *)
Proof. split; [eexists|split]; vm_compute; reflexivity. Qed.

Example cex_S4 : accepted_but_raises [SAssign 0 (LSig 1 []) (EBin Add (ESig 0 []) (EBin Sub (ELit 1) (ELit 2))) true].  (* s.o @= s.a + (1 - 2) *)
Proof. split; [eexists|split]; vm_compute; reflexivity. Qed.

Example cex_S5 : accepted_but_raises
  [SAssign 0 (LSig 1 []) (EBin Add (ESig 0 []) (EIf (EIdx (ESig 0 []) (ELit 1)) (ELit 3) (ELit 300))) true].   (* s.o @= s.a + (3 if s.a[1] else 300) *)
Proof. split; [eexists|split]; vm_compute; reflexivity. Qed.

Example cex_S10 : accepted_but_raises
  [SAssign 0 (LSig 2 []) (EIf (EIdx (ESig 0 []) (ELit 1)) (EBin Add (ELit 1) (ELit 2)) (ESig 0 [])) true].     (* s.o2 @= (1 + 2) if s.a[1] else s.a *)
Proof. split; [eexists|split]; vm_compute; reflexivity. Qed.
