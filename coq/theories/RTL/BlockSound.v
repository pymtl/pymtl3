(* RTL/BlockSound.v — soundness of the (strict) type checker for WHOLE update blocks: assignments, if / else and
   constant-bounded for loops, arbitrarily nested.  An accepted, cast-free block never raises a width error, whatever
   the inputs, and leaves the temporaries / loop variables well typed.

   How the statement-level typing of the code works (mirrored by Typing.tcs): the environment of temporaries is
   threaded flow-insensitively — then-branch, else-branch and the rest of the block are typed one after the other, a
   loop body is typed once.  Under check (S7) a temporary keeps the type of its first typing, so all the
   environments met along the way are contained in the FINAL one ([tmps_in]); the proof uses that final environment B as the
   invariant: every temporary that has a value at run time has the type B gives it.  A temporary assigned in one
   branch only and read after the other branch was taken is an UnboundLocalError at run time (not a width error). *)
From PV Require Import Base.Prelude RTL.Syntax RTL.SyntaxFacts RTL.Eval RTL.EvalLemmas RTL.Typing RTL.TypingSound.
Open Scope Z_scope.

(* the property's side condition on statements: no explicit width-changing cast anywhere *)
Fixpoint castfree_stmt (s : stmt) : bool :=
  match s with
  | SAssign _ l e _ => castfree e && castfree_lhs l
  | SIf _ c t f => castfree c &&
      (fix go (l : list stmt) : bool := match l with [] => true | x :: r => castfree_stmt x && go r end) t &&
      (fix go (l : list stmt) : bool := match l with [] => true | x :: r => castfree_stmt x && go r end) f
  | SFor _ _ _ _ body =>
      (fix go (l : list stmt) : bool := match l with [] => true | x :: r => castfree_stmt x && go r end) body
  end.
(* literally the anonymous [fix] used in [castfree_stmt], so that [change] can name it *)
Definition castfree_block : list stmt -> bool :=
  fix go (l : list stmt) : bool := match l with [] => true | x :: r => castfree_stmt x && go r end.

Definition tenv_wf (E : tenv) : Prop :=
  (forall i w ex mi bo, ttmp E i = Some (w, ex, mi, bo) -> 0 < w /\ (ex = false -> mi = true)) /\
  (forall i w, tloop E i = Some w -> 0 < w).

(* every temporary typed in E has the same width, explicitness and may-be-int flag in B; the rdt.Bool flag may differ:
   (S7) does not fix it and [val_ok] does not look at it ([val_ok_tmp_bool]) *)
Definition tmps_in (E B : tenv) : Prop :=
  forall i w ex mi bo, ttmp E i = Some (w, ex, mi, bo) -> exists bo', ttmp B i = Some (w, ex, mi, bo').

Lemma tmps_in_refl E : tmps_in E E.
Proof. intros i w ex mi bo H; eauto. Qed.
Lemma tmps_in_trans E1 E2 E3 : tmps_in E1 E2 -> tmps_in E2 E3 -> tmps_in E1 E3.
Proof. intros H1 H2 i w ex mi bo H. destruct (H1 _ _ _ _ _ H) as [bo' H']. eauto. Qed.

(* the invariant: run-time temporaries are typed by the final environment B, loop variables by the current E *)
Definition inv (E B : tenv) (st : state) : Prop :=
  (forall i w ex mi bo v, ttmp B i = Some (w, ex, mi, bo) -> tmpv st i = Some v -> val_ok (tmp_ann w ex mi bo) v) /\
  (forall i w z, tloop E i = Some w -> loopv st i = Some z -> 0 <= z < 2 ^ w).

Lemma val_ok_tmp_bool w ex mi bo bo' v : val_ok (tmp_ann w ex mi bo) v -> val_ok (tmp_ann w ex mi bo') v.
Proof. destruct v; cbn; auto. Qed.

Lemma inv_env_ok E B st : tenv_wf E -> tmps_in E B -> inv E B st -> env_ok E st.
Proof.
  intros [W1 W2] Hin [I1 I2]. split.
  - intros i w ex mi bo T. destruct (W1 _ _ _ _ _ T) as [Pw Hm]. split; [exact Pw|]. split; [exact Hm|].
    intros v Hv. destruct (Hin _ _ _ _ _ T) as [bo' TB]. eapply val_ok_tmp_bool. eapply I1; eauto.
  - intros i w T. split; [eapply W2; eauto|]. intros z Hz. eapply I2; eauto.
Qed.

Lemma inv_same E B st st' : tmpv st' = tmpv st -> loopv st' = loopv st -> inv E B st -> inv E B st'.
Proof. intros Ht Hl [I1 I2]. split; intros; rewrite ?Ht, ?Hl in *; eauto. Qed.

Lemma inv_loops E E' B st : (forall i, tloop E' i = tloop E i) -> inv E B st -> inv E' B st.
Proof. intros Hl [I1 I2]. split; [exact I1|]. intros i w z T. rewrite Hl in T. eauto. Qed.

(* typing a statement keeps well-formedness, the signals and the loop variables in scope, and only adds temporaries *)
Definition static_ok (E E' : tenv) : Prop :=
  tenv_wf E' /\ tmps_in E E' /\ tsig E' = tsig E /\ (forall i, tloop E' i = tloop E i).

Definition sres_ok (E' B : tenv) (r : res state) : Prop :=
  match r with Ok st' => inv E' B st' | Err EValue => False | Err _ => True end.

(* what has to be shown of every statement: E types the state before it, E' the state after it, B is the final
   environment of the enclosing block *)
Definition stmt_sound (s : stmt) : Prop :=
  forall E E' ns, tcs strict' E s = Some (E', ns) -> castfree_stmt s = true -> tenv_wf E ->
    static_ok E E' /\
    forall B st, tmps_in E' B -> inv E B st -> sres_ok E' B (exec (tsig E) s st).

Definition stmts_sound (l : list stmt) : Prop :=
  forall E E' ns, tcs_list (tcs strict') l E = Some (E', ns) -> castfree_block l = true -> tenv_wf E ->
    static_ok E E' /\
    forall B st, tmps_in E' B -> inv E B st -> sres_ok E' B (exec_list (exec (tsig E)) l st).

Lemma static_ok_refl E : tenv_wf E -> static_ok E E.
Proof. intros W. split; [exact W|]. split; [apply tmps_in_refl|]. split; reflexivity. Qed.

Lemma static_ok_trans E1 E2 E3 : static_ok E1 E2 -> static_ok E2 E3 -> static_ok E1 E3.
Proof.
  intros (_ & T1 & S1 & L1) (W3 & T2 & S2 & L2). split; [exact W3|]. split; [eapply tmps_in_trans; eauto|].
  split; [congruence|]. intros i. rewrite L2. apply L1.
Qed.

Lemma stmts_sound_of l : Forall stmt_sound l -> stmts_sound l.
Proof.
  induction 1 as [|x r Hx Hr IH]; intros E E' ns Htc Hcf W.
  - cbn in Htc. injection Htc as <- <-. split; [apply static_ok_refl; exact W|]. intros B st _ I. exact I.
  - cbn [tcs_list] in Htc. cbn [castfree_block] in Hcf. apply andb_prop in Hcf as [Hcx Hcr].
    destruct (tcs strict' E x) as [[E1 n1]|] eqn:Tx; [|discriminate].
    destruct (tcs_list (tcs strict') r E1) as [[E2 n2]|] eqn:Tr; [|discriminate]. injection Htc as <- <-.
    destruct (Hx E E1 n1 Tx Hcx W) as [S1 X1]. pose proof S1 as (W1 & T1 & G1 & L1).
    destruct (IH E1 E2 n2 Tr Hcr W1) as [S2 X2]. pose proof S2 as (W2 & T2 & G2 & L2).
    split; [eapply static_ok_trans; eauto|].
    intros B st HB I. cbn [exec_list].
    specialize (X1 B st (tmps_in_trans _ _ _ T2 HB) I).
    destruct (exec (tsig E) x st) as [st1|er]; cbn [bind]; [|exact X1].
    rewrite <- G1. apply X2; assumption.
Qed.

Lemma tenv_wf_env_ok0 E : tenv_wf E -> env_ok E (init_state []).
Proof. intros W. apply (inv_env_ok E E _ W (tmps_in_refl E)). split; intros; discriminate. Qed.

(* an accepted assignment leaves the typing environment as it is or, under (S7), records a temporary with the type it keeps *)
Lemma tc_assign_static E l e E' ns :
  tc_assign strict' E l e = Some (E', ns) -> castfree e = true -> tenv_wf E -> static_ok E E'.
Proof.
  intros Htc Hce W.
  destruct l as [s p|s p lo hi|s p ix|i];
    try (destruct (tc_assign_sig E _ e _ E' ns Htc eq_refl) as (_ & _ & _ & _ & -> & _);
         apply static_ok_refl; exact W).
  destruct (tc_assign_tmp E i e E' ns Htc) as (R & lr & Te & Ov & -> & Hsame).
  (* the [ann_inv] half of [sound_at] does not depend on the state; the empty state satisfies [env_ok] vacuously *)
  destruct (tc_sound_gen e E (init_state []) R lr Te Hce (tenv_wf_env_ok0 E W)) as [(PR & I2 & _) _].
  destruct W as [W1 W2]. split; [|split; [|split; [reflexivity|intros j; reflexivity]]].
  - split; [|exact W2]. intros j w ex mi bo. cbn. unfold upd_t. destruct (Nat.eqb j i).
    + intros [= <- <- <- <-]. auto.
    + apply W1.
  - intros j w ex mi bo T. cbn. unfold upd_t. destruct (Nat.eqb j i) eqn:J; [|eauto].
    apply Nat.eqb_eq in J. subst j. destruct (Hsame _ _ _ _ T) as (-> & -> & ->). eauto.
Qed.

(* [tc_assign_sound] generalised from [env_ok] to the invariant with a final environment *)
Lemma sound_assign lbl l e b : stmt_sound (SAssign lbl l e b).
Proof.
  intros E E' ns Htc Hcf W. cbn [tcs] in Htc. cbn [castfree_stmt] in Hcf. apply andb_prop in Hcf as [Hce Hcl].
  pose proof (tc_assign_static E l e E' ns Htc Hce W) as S.
  split; [exact S|]. intros B st HB I. destruct S as (W' & T' & G' & L').
  pose proof (inv_env_ok E B st W (tmps_in_trans _ _ _ T' HB) I) as Henv.
  pose proof (assign_no_width_error E st lbl l e b E' ns Htc Hce Hcl Henv) as N.
  pose proof (exec_assign_cases (tsig E) st lbl l e b) as C.
  cbn [exec]. destruct (exec_assign (tsig E) st lbl l e b) as [st'|er]; [|destruct er; cbn; auto].
  destruct C as [Pl Pt]. destruct I as [I1 I2]. split.
  - intros j w ex mi bo v TB Hv.
    destruct l as [s p|s p lo hi|s p ix|i]; try (rewrite Pt in Hv; eapply I1; eauto).
    destruct Pt as (v0 & Ev & Pt). rewrite Pt in Hv. unfold upd in Hv.
    destruct (Nat.eqb j i) eqn:J; [|eapply I1; eauto]. apply Nat.eqb_eq in J. subst j. injection Hv as <-.
    destruct (tc_assign_tmp E i e E' ns Htc) as (R & lr & Te & Ov & -> & _).
    destruct (tc_sound_gen e E st R lr Te Hce Henv) as [_ Hv0]. rewrite Ev in Hv0.
    assert (TE : ttmp (set_ttmp E i (aw R, aex R, aint R, abool R)) i = Some (aw R, aex R, aint R, abool R))
      by (cbn; unfold upd_t; rewrite Nat.eqb_refl; reflexivity).
    destruct (HB _ _ _ _ _ TE) as [bo' TB']. rewrite TB in TB'. injection TB' as -> -> -> ->.
    exact (val_ok_tmp R v0 bo' Hv0 Ov).
  - intros j w z T Hz. rewrite L' in T. rewrite Pl in Hz. eauto.
Qed.

Lemma sres_ok_err E B er : er <> EValue -> sres_ok E B (Err er).
Proof. destruct er; cbn; auto. Qed.

Lemma sres_ok_loops E E' B r : (forall i, tloop E' i = tloop E i) -> sres_ok E B r -> sres_ok E' B r.
Proof. intros Hl. destruct r as [st|er]; cbn; [apply inv_loops; exact Hl|auto]. Qed.

Lemma sound_if lbl c t f : Forall stmt_sound t -> Forall stmt_sound f -> stmt_sound (SIf lbl c t f).
Proof.
  intros Ht Hf E E' ns Htc Hcf W. apply stmts_sound_of in Ht, Hf.
  cbn [tcs] in Htc. cbn [castfree_stmt] in Hcf.
  apply andb_prop in Hcf as [Hcf Hcff]. apply andb_prop in Hcf as [Hcc Hcft].
  change (castfree_block t = true) in Hcft. change (castfree_block f = true) in Hcff.
  destruct (tc strict' E c) as [[rc lc]|] eqn:Tc; [|discriminate]. cbn [fst] in Htc.
  destruct (is_struct rc || (true && aovf rc)); [discriminate|].
  destruct (tcs_list (tcs strict') t E) as [[E1 n1]|] eqn:T1; [|discriminate].
  destruct (tcs_list (tcs strict') f E1) as [[E2 n2]|] eqn:T2; [|discriminate]. injection Htc as <- <-.
  destruct (Ht E E1 n1 T1 Hcft W) as [S1 X1]. pose proof S1 as (W1 & I1 & G1 & L1).
  destruct (Hf E1 E2 n2 T2 Hcff W1) as [S2 X2]. pose proof S2 as (W2 & I2 & G2 & L2).
  split; [eapply static_ok_trans; eauto|].
  intros B st HB I. cbn [exec].
  pose proof (inv_env_ok E B st W (tmps_in_trans _ _ _ I1 (tmps_in_trans _ _ _ I2 HB)) I) as Henv.
  destruct (tc_sound_gen c E st rc lc Tc Hcc Henv) as [_ Rc].
  destruct (eval (tsig E) st c) as [vc|er]; cbn [bind].
  2: { apply sres_ok_err. intros ->. exact Rc. }
  cbn zeta.
  set (st' := add_evs st (map (fun p => (lbl, fst p, snd p)) (probes (tsig E) st 0 c))).
  assert (I' : inv E B st') by (eapply inv_same; [| |exact I]; reflexivity).
  destruct (truthy vc).
  - eapply sres_ok_loops; [exact L2|]. apply X1; [eapply tmps_in_trans; eauto|exact I'].
  - rewrite <- G1. apply X2; [exact HB|]. eapply inv_loops; [exact L1|exact I'].
Qed.

(* the last value the loop variable takes is lo + (q-1)*step, q the trip count; [loopvar_width] is [nbits_of] of exactly that *)
Lemma loop_range lo hi step k : 0 <= lo -> 0 < step -> (k < loop_count lo hi step)%nat ->
  0 <= lo + Z.of_nat k * step < 2 ^ loopvar_width lo hi step.
Proof.
  intros Hlo Hst Hk. unfold loop_count, loopvar_width in *.
  destruct (step <=? 0) eqn:S0; [lia|]. cbn [orb] in Hk.
  destruct (hi <=? lo) eqn:C; [lia|].
  set (q := (hi - lo + step - 1) / step) in *.
  assert (Hq : Z.of_nat k < q) by lia.
  assert (Hm : 0 <= lo + (q - 1) * step) by nia.
  pose proof (lit_width (lo + (q - 1) * step) Hm) as (_ & L2 & _).
  split; [nia|]. assert (lo + Z.of_nat k * step <= lo + (q - 1) * step) by nia. lia.
Qed.

Lemma loopvar_width_pos lo hi step : 0 < loopvar_width lo hi step.
Proof. unfold loopvar_width. destruct (hi <=? lo); apply nbits_of_pos. Qed.

(* the loop of [exec (SFor ..)]: what every iteration with an index in range [R] preserves holds when the loop ends *)
Lemma for_loop_inv (run : Z -> state -> res state) (step : Z) (R : Z -> Prop) (P : state -> Prop) :
  (forall i st, R i -> P st -> match run i st with Ok st' => P st' | Err EValue => False | Err _ => True end) ->
  forall n i st, (forall k, (k < n)%nat -> R (i + Z.of_nat k * step)) -> P st ->
  match (fix loop (n : nat) (i : Z) (st : state) : res state :=
           match n with O => Ok st | S n' => bind (run i st) (loop n' (i + step)) end) n i st
  with Ok st' => P st' | Err EValue => False | Err _ => True end.
Proof.
  intros Hrun. induction n as [|n IH]; intros i st Hr I; [exact I|].
  assert (R0 : R i) by (replace i with (i + Z.of_nat 0 * step) by (cbn; lia); apply Hr; lia).
  specialize (Hrun i st R0 I). destruct (run i st) as [st1|er]; cbn [bind]; [|exact Hrun].
  apply IH; [|exact Hrun]. intros k Hk.
  replace (i + step + Z.of_nat k * step) with (i + Z.of_nat (S k) * step) by lia. apply Hr. lia.
Qed.

Lemma sound_for id lo hi step body : Forall stmt_sound body -> stmt_sound (SFor id lo hi step body).
Proof.
  intros Hb E E' ns Htc Hcf W. apply stmts_sound_of in Hb.
  cbn [tcs] in Htc. cbn [castfree_stmt] in Hcf. change (castfree_block body = true) in Hcf.
  destruct ((lo <? 0) || (hi <? 0) || (step <=? 0)) eqn:Fl; [discriminate|].
  destruct (tloop E id) as [?|] eqn:Tid; [discriminate|]. cbn zeta in Htc.
  set (lw := loopvar_width lo hi step) in *. set (E0 := set_tloop E id (Some lw)) in *.
  destruct (tcs_list (tcs strict') body E0) as [[E1 ns1]|] eqn:Tb; [|discriminate]. injection Htc as <- <-.
  assert (W0 : tenv_wf E0).
  { destruct W as [W1 W2]. split; [exact W1|]. intros j w. cbn. unfold upd_t. destruct (Nat.eqb j id).
    - intros [= <-]. apply loopvar_width_pos.
    - apply W2. }
  destruct (Hb E0 E1 ns1 Tb Hcf W0) as [S1 X1]. destruct S1 as (W1 & I1 & G1 & L1).
  assert (Lp : forall j, tloop (set_tloop E1 id None) j = tloop E j).
  { intros j. cbn. unfold upd_t. destruct (Nat.eqb j id) eqn:J.
    - apply Nat.eqb_eq in J. subst j. symmetry. exact Tid.
    - rewrite L1. cbn. unfold upd_t. rewrite J. reflexivity. }
  split.
  - split; [|split; [|split]].
    + destruct W1 as [A1 A2]. split; [exact A1|]. intros j w T. rewrite Lp in T. destruct W as [_ W2]. eapply W2; eauto.
    + exact I1.
    + exact G1.
    + exact Lp.
  - intros B st HB I. cbn [exec]. eapply sres_ok_loops; [exact Lp|].
    apply (for_loop_inv (fun i st => exec_list (exec (tsig E)) body (set_loop st id i)) step
             (fun i => 0 <= i < 2 ^ lw) (inv E B)); [|intros k Hk; apply loop_range; [lia|lia|exact Hk]|exact I].
    clear st I. intros i st Hi I.
    (* one iteration: the body runs under E0, where the loop variable has its type, and is typed once for all indices *)
    assert (I0 : inv E0 B (set_loop st id i)).
    { destruct I as [A1 A2]. split; [exact A1|]. intros j w z. cbn. unfold upd_t, upd. destruct (Nat.eqb j id).
      - intros [= <-] [= <-]. exact Hi.
      - apply A2. }
    specialize (X1 B (set_loop st id i) HB I0). change (tsig E0) with (tsig E) in X1.
    destruct (exec_list (exec (tsig E)) body (set_loop st id i)) as [st1|er]; [|exact X1].
    destruct X1 as [A1 A2]. split; [exact A1|]. intros j w z T. apply A2. rewrite L1. cbn. unfold upd_t.
    destruct (Nat.eqb j id) eqn:J; [|exact T]. apply Nat.eqb_eq in J. subst j. congruence.
Qed.

Theorem stmt_sound_all : forall s, stmt_sound s.
Proof.
  induction s using stmt_ind'.
  - apply sound_assign. - apply sound_if; assumption. - apply sound_for; assumption.
Qed.

Theorem block_sound G b inputs E' ns :
  tc_block strict (init_tenv G) b = Some (E', ns) -> castfree_block b = true ->
  match exec_block G b (init_state inputs) with
  | Ok st' => env_ok E' st'
  | Err EValue => False
  | Err _ => True
  end.
Proof.
  intros Htc Hcf.
  assert (W : tenv_wf (init_tenv G)) by (split; intros; discriminate).
  assert (HS : stmts_sound b) by (apply stmts_sound_of, Forall_forall; intros s _; apply stmt_sound_all).
  destruct (HS (init_tenv G) E' ns Htc Hcf W) as [(W' & _ & _ & _) X].
  assert (I : inv (init_tenv G) E' (init_state inputs)) by (split; intros; discriminate).
  specialize (X E' (init_state inputs) (tmps_in_refl E') I). unfold exec_block. cbn [init_tenv tsig] in X.
  destruct (exec_list (exec G) b (init_state inputs)) as [st'|er]; [|exact X].
  eapply inv_env_ok; [exact W'|apply tmps_in_refl|exact X].
Qed.
