(* RTL/SyntaxFacts.v — induction principles for the nested inductives [expr] and [stmt], and soundness of the boolean
   equalities [path_eqb] and [expr_eqb]. *)
From PV Require Import Base.Prelude RTL.Syntax.

Section ExprInd.
  Variable P : expr -> Prop.
  Hypothesis HSig : forall s p, P (ESig s p).
  Hypothesis HLit : forall z, P (ELit z).
  Hypothesis HSized : forall n z, P (ESized n z).
  Hypothesis HFree : forall z, P (EFree z).
  Hypothesis HCast : forall n a, P a -> P (ECast n a).
  Hypothesis HBin : forall op a b, P a -> P b -> P (EBin op a b).
  Hypothesis HCmp : forall op a b, P a -> P b -> P (ECmp op a b).
  Hypothesis HInv : forall a, P a -> P (EInv a).
  Hypothesis HSlice : forall a lo hi, P a -> P lo -> P hi -> P (ESlice a lo hi).
  Hypothesis HIdx : forall a i, P a -> P i -> P (EIdx a i).
  Hypothesis HConcat : forall es, Forall P es -> P (EConcat es).
  Hypothesis HZext : forall n a, P a -> P (EZext n a).
  Hypothesis HSext : forall n a, P a -> P (ESext n a).
  Hypothesis HTrunc : forall n a, P a -> P (ETrunc n a).
  Hypothesis HRed : forall op a, P a -> P (ERed op a).
  Hypothesis HIf : forall c a b, P c -> P a -> P b -> P (EIf c a b).
  Hypothesis HTmp : forall i, P (ETmp i).
  Hypothesis HLoop : forall i, P (ELoop i).
  Fixpoint expr_ind' (e : expr) : P e :=
    match e with
    | ESig s p => HSig s p | ELit z => HLit z | ESized n z => HSized n z | EFree z => HFree z
    | ECast n a => HCast n a (expr_ind' a)
    | EBin op a b => HBin op a b (expr_ind' a) (expr_ind' b)
    | ECmp op a b => HCmp op a b (expr_ind' a) (expr_ind' b)
    | EInv a => HInv a (expr_ind' a)
    | ESlice a lo hi => HSlice a lo hi (expr_ind' a) (expr_ind' lo) (expr_ind' hi)
    | EIdx a i => HIdx a i (expr_ind' a) (expr_ind' i)
    | EConcat es => HConcat es ((fix go (l : list expr) : Forall P l :=
                                   match l with [] => Forall_nil P | x :: r => Forall_cons x (expr_ind' x) (go r) end) es)
    | EZext n a => HZext n a (expr_ind' a) | ESext n a => HSext n a (expr_ind' a)
    | ETrunc n a => HTrunc n a (expr_ind' a) | ERed op a => HRed op a (expr_ind' a)
    | EIf c a b => HIf c a b (expr_ind' c) (expr_ind' a) (expr_ind' b)
    | ETmp i => HTmp i | ELoop i => HLoop i
    end.
End ExprInd.

Lemma path_eqb_eq p q : path_eqb p q = true -> p = q.
Proof.
  revert q; induction p as [|x p IH]; intros [|y q]; cbn; try discriminate; [reflexivity|].
  intros H. apply andb_prop in H as [H1 H2]. apply Nat.eqb_eq in H1. f_equal; auto.
Qed.

Lemma expr_eqb_eq x : forall y, expr_eqb x y = true -> x = y.
Proof.
  induction x using expr_ind'; intros y Hy; destruct y; cbn [expr_eqb] in Hy; try discriminate;
    repeat match goal with H : _ && _ = true |- _ => apply andb_prop in H as [? ?] end;
    repeat match goal with
           | H : (_ =? _) = true |- _ => apply Z.eqb_eq in H; subst
           | H : Nat.eqb _ _ = true |- _ => apply Nat.eqb_eq in H; subst
           | H : path_eqb _ _ = true |- _ => apply path_eqb_eq in H; subst
           end;
    try (f_equal; auto; fail).
  - (* EBin *) f_equal; auto. destruct op, op0; try discriminate; reflexivity.
  - (* ECmp *) f_equal; auto. destruct op, op0; try discriminate; reflexivity.
  - (* EConcat *) f_equal. revert es0 Hy. induction H as [|x r Hx Hr IH]; intros [|y r'] Hy; try discriminate; [reflexivity|].
    apply andb_prop in Hy as [H1 H2]. f_equal; auto.
  - (* ERed *) f_equal; auto. destruct op, op0; try discriminate; reflexivity.
Qed.

Section StmtInd.
  Variable P : stmt -> Prop.
  Hypothesis HA : forall lbl l e b, P (SAssign lbl l e b).
  Hypothesis HI : forall lbl c t f, Forall P t -> Forall P f -> P (SIf lbl c t f).
  Hypothesis HF : forall id lo hi step body, Forall P body -> P (SFor id lo hi step body).
  Fixpoint stmt_ind' (s : stmt) : P s :=
    let go := fix go (l : list stmt) : Forall P l :=
                match l with [] => Forall_nil P | x :: r => Forall_cons x (stmt_ind' x) (go r) end in
    match s with
    | SAssign lbl l e b => HA lbl l e b
    | SIf lbl c t f => HI lbl c t f (go t) (go f)
    | SFor id lo hi step body => HF id lo hi step body (go body)
    end.
End StmtInd.
