(* Lib/QueueProofs.v — C17: every concrete queue model refines the FIFO specification of Lib/Fifo.v, for ALL
   capacities n >= 1, all kinds, all (protocol-legal) input sequences.
   Everything turns on sim1: through an abstraction to the list of queued messages, one cycle of a machine is one
   cycle of the specification. It is proved per model, lifted once to runs, and the trace-level consequences
   (ready rules, conservation, FIFO order, capacity) are drawn once for any machine that satisfies it. *)
From PV Require Import Base.Prelude Lib.Fifo Lib.QueueRTL Lib.QueueCL.
Open Scope nat_scope.

(* case analysis on every test of an if-then-else in the goal and the hypotheses (the pointer and index
   functions are comparisons followed by linear arithmetic) *)
Ltac ifs :=
  repeat match goal with
         | |- context [if ?b then _ else _] => destruct b eqn:?
         | H : context [if ?b then _ else _] |- _ => destruct b eqn:?
         end.

Section SpecFacts.
  Context {M : Type}.
  Implicit Types (q : list M) (o : offer M).

  Lemma q_empty_len q : q_empty q = (length q =? 0).
  Proof. destruct q; reflexivity. Qed.

  Lemma fifo_rdys_eq k n q o :
    fifo_rdys k n q o =
    (negb (q_full n q) || is_pipe k && (o_deq o && negb (q_empty q)),
     negb (q_empty q) || is_bypass k && (o_enq o && negb (q_full n q))).
  Proof. destruct k; cbn [fifo_rdys is_pipe is_bypass andb]; rewrite ?orb_false_r; reflexivity. Qed.

  (* a ready dequeue finds a message: a queued one, or the one an empty bypass queue accepts in this cycle *)
  Lemma fifo_deq_rdy_nonempty k n q o :
    snd (fifo_rdys k n q o) = true ->
    (if o_enq o && fst (fifo_rdys k n q o) then q ++ [o_msg o] else q) <> [].
  Proof.
    rewrite fifo_rdys_eq. cbn [fst snd]. destruct q as [|a q]; [|intros _; destruct (o_enq o && _); discriminate].
    cbn [q_empty negb orb]. intros H. apply andb_true_iff in H. destruct H as [_ H].
    apply andb_true_iff in H. destruct H as [He Hf]. rewrite He, Hf. discriminate.
  Qed.

  (* with length tests (what the hardware compares): an empty queue is not full and a full one not empty, as 0 < n;
     so the inner tests of fifo_rdys_eq disappear (by computation once n is a successor and the length 0 or not) *)
  Lemma fifo_rdys_len k n q o : 0 < n ->
    fifo_rdys k n q o = ((length q <? n) || is_pipe k && o_deq o, (0 <? length q) || is_bypass k && o_enq o).
  Proof.
    intros Hn. rewrite fifo_rdys_eq. unfold q_full. rewrite q_empty_len, !Nat.ltb_antisym.
    destruct n; [lia|]. destruct (length q); cbn [Nat.eqb Nat.leb negb orb]; rewrite ?andb_true_r; reflexivity.
  Qed.

  Lemma fifo_step_conserve k n q o :
    q ++ accepted1 o (Some (snd (fifo_step k n q o))) = delivered1 (Some (snd (fifo_step k n q o))) ++ fst (fifo_step k n q o).
  Proof.
    unfold fifo_step. destruct (fifo_rdys k n q o) as [er dr].
    destruct (o_enq o && er), (o_deq o && dr); cbn; rewrite ?app_nil_r; try reflexivity.
    - destruct q; reflexivity.
    - destruct q; reflexivity.
  Qed.

  Lemma fifo_step_msg_iff k n q o :
    (f_msg (snd (fifo_step k n q o)) <> None) <-> f_deq_fire (snd (fifo_step k n q o)) = true.
  Proof.
    pose proof (fifo_deq_rdy_nonempty k n q o) as Hne. unfold fifo_step.
    destruct (fifo_rdys k n q o) as [er dr]. cbn [fst snd f_msg f_deq_fire] in *.
    destruct (o_deq o && dr) eqn:Ed; [|split; [congruence|discriminate]].
    apply andb_true_iff in Ed. specialize (Hne (proj2 Ed)).
    destruct (if o_enq o && er then q ++ [o_msg o] else q); [contradiction|].
    split; [reflexivity|discriminate].
  Qed.

  Lemma fifo_step_count k n q o : f_count (snd (fifo_step k n q o)) = length q.
  Proof. unfold fifo_step. destruct (fifo_rdys k n q o). reflexivity. Qed.

  Lemma fifo_fire_rule k n q o :
    f_enq_fire (snd (fifo_step k n q o)) = (o_enq o && f_enq_rdy (snd (fifo_step k n q o)))%bool /\
    f_deq_fire (snd (fifo_step k n q o)) = (o_deq o && f_deq_rdy (snd (fifo_step k n q o)))%bool.
  Proof. unfold fifo_step. destruct (fifo_rdys k n q o). split; reflexivity. Qed.

  (* the same-cycle ready rules, exactly as the property words them *)
  Lemma fifo_enq_rdy_rule k n q o :
    f_enq_rdy (snd (fifo_step k n q o)) = true <->
    (length q < n \/ (k = Pipe /\ f_deq_fire (snd (fifo_step k n q o)) = true)).
  Proof.
    unfold fifo_step. rewrite fifo_rdys_eq. cbn [snd f_enq_rdy f_deq_fire]. unfold q_full.
    rewrite orb_true_iff, negb_true_iff, Nat.leb_gt.
    destruct k; cbn [is_pipe is_bypass andb]; rewrite ?orb_false_r; intuition congruence.
  Qed.

  Lemma fifo_deq_rdy_rule k n q o :
    f_deq_rdy (snd (fifo_step k n q o)) = true <->
    (0 < length q \/ (k = Bypass /\ f_enq_fire (snd (fifo_step k n q o)) = true)).
  Proof.
    unfold fifo_step. rewrite fifo_rdys_eq. cbn [snd f_deq_rdy f_enq_fire]. rewrite q_empty_len.
    rewrite orb_true_iff, negb_true_iff, Nat.eqb_neq, Nat.neq_0_lt_0.
    destruct k; cbn [is_pipe is_bypass andb]; rewrite ?orb_false_r; intuition congruence.
  Qed.

  (* occupancy never above the capacity: an accepting queue had room, or (pipe) delivers in the same cycle *)
  Lemma fifo_step_bound k n q o : length q <= n -> length (fst (fifo_step k n q o)) <= n.
  Proof.
    intros Hq. pose proof (f_equal (@length M) (fifo_step_conserve k n q o)) as Hc.
    pose proof (proj1 (fifo_enq_rdy_rule k n q o)) as Hr. pose proof (proj1 (fifo_fire_rule k n q o)) as Hf.
    pose proof (proj2 (fifo_step_msg_iff k n q o)) as Hm.
    destruct (fifo_step k n q o) as [q' f]. cbn [fst snd accepted1 delivered1] in *. rewrite !app_length in Hc.
    destruct (f_enq_fire f).
    - symmetry in Hf. apply andb_true_iff in Hf. destruct (Hr (proj2 Hf)) as [Hlt|[_ Hd]].
      + destruct (f_msg f); cbn [length] in Hc; lia.
      + apply Hm in Hd. destruct (f_msg f); [cbn [length] in Hc; lia|contradiction].
    - destruct (f_msg f); cbn [length] in Hc; lia.
  Qed.

  Lemma fifo_pipe_full n q o : length q = n ->
    f_enq_rdy (snd (fifo_step Pipe n q o)) = f_deq_fire (snd (fifo_step Pipe n q o)).
  Proof.
    intros Hl. unfold fifo_step, fifo_rdys, q_full. cbn.
    replace (n <=? length q) with true by (symmetry; apply Nat.leb_le; lia). reflexivity.
  Qed.
  Lemma fifo_bypass_empty n o : 0 < n ->
    f_deq_rdy (snd (fifo_step Bypass n [] o)) = f_enq_fire (snd (fifo_step Bypass n [] o)) /\
    (f_deq_fire (snd (fifo_step Bypass n [] o)) = true -> f_msg (snd (fifo_step Bypass n [] o)) = Some (o_msg o)).
  Proof.
    intros Hn. unfold fifo_step, fifo_rdys, q_full. cbn.
    replace (n <=? 0) with false by (symmetry; apply Nat.leb_gt; lia). cbn.
    split; [reflexivity|]. destruct (o_enq o), (o_deq o); cbn; congruence.
  Qed.

  Lemma fifo_run_conserve k n os : no_reset os -> forall q,
    q ++ accepted os (snd (fifo_run k n q os)) = delivered (snd (fifo_run k n q os)) ++ fst (fifo_run k n q os).
  Proof.
    induction os as [|[rst o] r IH]; intros Hnr q; cbn.
    - now rewrite app_nil_r.
    - inversion Hnr as [|x l Hx Hr]; subst. cbn in Hx; subst rst. cbn.
      pose proof (fifo_step_conserve k n q o) as Hc.
      destruct (fifo_step k n q o) as [q' f] eqn:Hs. cbn [fst snd] in Hc.
      specialize (IH Hr q'). destruct (fifo_run k n q' r) as [qf outs]. cbn [fst snd] in *.
      cbn [accepted delivered]. rewrite app_assoc, Hc, <- !app_assoc, IH. reflexivity.
  Qed.

  Lemma fifo_run_bound k n os : forall q, length q <= n -> length (fst (fifo_run k n q os)) <= n.
  Proof.
    induction os as [|[rst o] r IH]; intros q Hq; cbn; [assumption|].
    unfold fifo_step_r. destruct rst.
    - specialize (IH [] ltac:(cbn; lia)). destruct (fifo_run k n [] r). assumption.
    - pose proof (fifo_step_bound k n q o Hq) as Hb. destruct (fifo_step k n q o) as [q' f]. cbn [fst] in Hb.
      specialize (IH q' Hb). destruct (fifo_run k n q' r). assumption.
  Qed.

  Lemma fifo_reset k n q o : fifo_step_r k n q true o = ([], None).
  Proof. reflexivity. Qed.
End SpecFacts.

Section Lift.
  Context {M S : Type}.
  Variables (k : qkind) (n : nat).
  Variable step : S -> rin M -> S * fout M.
  Variable abs : S -> list M.
  Variable inv : S -> Prop.
  Variable legal : S -> rin M -> Prop.

  Definition sim1 : Prop := forall s i, inv s -> legal s i ->
    inv (fst (step s i)) /\
    abs (fst (step s i)) = fst (fifo_step_r k n (abs s) (i_rst i) (offer_of i)) /\
    (i_rst i = false -> snd (step s i) = snd (fifo_step k n (abs s) (offer_of i))).

  (* both parts of a cycle in one equation, reset or not *)
  Lemma sim1_r : sim1 -> forall s i, inv s -> legal s i ->
    (abs (fst (step s i)), if i_rst i then None else Some (snd (step s i)))
    = fifo_step_r k n (abs s) (i_rst i) (offer_of i).
  Proof.
    intros Hsim s i Hi Hl. destruct (Hsim s i Hi Hl) as (_ & Ha & Ho). rewrite Ha. unfold fifo_step_r in *.
    destruct (i_rst i); [reflexivity|]. rewrite (Ho eq_refl). destruct (fifo_step k n (abs s) (offer_of i)); reflexivity.
  Qed.

  Lemma sim1_run : sim1 -> forall is s, inv s -> legal_run step legal s is ->
    snd (run step s is) = snd (fifo_run k n (abs s) (offers_of is)) /\
    abs (fst (run step s is)) = fst (fifo_run k n (abs s) (offers_of is)) /\
    inv (fst (run step s is)).
  Proof.
    intros Hsim. induction is as [|i r IH]; intros s Hinv Hleg; [cbn; auto|].
    destruct Hleg as [Hl Hr]. pose proof (sim1_r Hsim s i Hinv Hl) as E. destruct (Hsim s i Hinv Hl) as (Hi' & _).
    cbn [run fifo_run offers_of map]. destruct (step s i) as [s' out]. cbn [fst snd] in *. rewrite <- E.
    destruct (IH s' Hi' Hr) as (IHo & IHa & IHi). fold (offers_of r).
    destruct (run step s' r) as [sf outs], (fifo_run k n (abs s') (offers_of r)) as [qf souts].
    cbn [fst snd] in *. subst. auto.
  Qed.
End Lift.

(* the multi-entry Ctrl + Dpath model: a ring buffer; the queue is the window of c registers from h on *)
Section Ctrl.
  Context {M : Type}.
  Implicit Types (s : cstate M) (i : rin M) (regs : nat -> M).

  (* head in range, occupancy within capacity, tail = (head + count) mod n *)
  Definition c_inv (n : nat) s : Prop :=
    c_head s < n /\ c_count s <= n /\ c_tail s = (c_head s + c_count s) mod n.

  Lemma wrap_lt n h : 0 < n -> wrap_inc n h < n.
  Proof. intros Hn. unfold wrap_inc. destruct (h <? n - 1) eqn:E; [apply Nat.ltb_lt in E|]; lia. Qed.

  Lemma wrap_mod n x : x < n -> wrap_inc n x = (x + 1) mod n.
  Proof.
    intros Hx. unfold wrap_inc. destruct (Nat.ltb_spec x (n - 1)); symmetry.
    - apply Nat.mod_small. lia.
    - replace (x + 1) with n by lia. apply Nat.mod_same. lia.
  Qed.

  Lemma c_abs_length n s : length (c_abs n s) = c_count s.
  Proof. unfold c_abs. now rewrite map_length, seq_length. Qed.

  (* distinct offsets below n address distinct registers *)
  Lemma mod_add_inj n h j c : j < c -> c < n -> (h + j) mod n <> (h + c) mod n.
  Proof.
    intros Hj Hc E. pose proof (Nat.mod_upper_bound (h + j) n) as Hx.
    replace (h + c) with (h + j + (c - j)) in E by lia. rewrite <- (Nat.add_mod_idemp_l (h + j)) in E by lia.
    revert E Hx. generalize ((h + j) mod n). intros x E Hx.
    destruct (Nat.lt_ge_cases (x + (c - j)) n) as [H|H].
    - rewrite (Nat.mod_small _ _ H) in E. lia.
    - rewrite <- (Nat.mod_unique (x + (c - j)) n 1 (x + (c - j) - n)) in E; lia.
  Qed.

  (* a dequeue takes the register at the head *)
  Lemma c_deq_abs n h t c regs : c_inv n (mkC h t (S c) regs) ->
    c_inv n (mkC (wrap_inc n h) t c regs) /\
    c_abs n (mkC h t (S c) regs) = regs h :: c_abs n (mkC (wrap_inc n h) t c regs).
  Proof.
    unfold c_inv, c_abs. cbn [c_head c_tail c_count c_regs]. intros (Hh & Hc & Ht). rewrite wrap_mod by exact Hh.
    split; [split; [apply Nat.mod_upper_bound; lia|split; [lia|]]|].
    - rewrite Ht, Nat.add_mod_idemp_l by lia. f_equal. lia.
    - cbn [seq map]. rewrite Nat.add_0_r, Nat.mod_small by exact Hh. f_equal.
      rewrite <- seq_shift, map_map. apply map_ext. intros j.
      rewrite Nat.add_mod_idemp_l by lia. do 2 f_equal. lia.
  Qed.

  (* an enqueue writes the register just past the window *)
  Lemma c_enq_abs n h t c regs m : c_inv n (mkC h t c regs) -> c < n ->
    c_inv n (mkC h (wrap_inc n t) (S c) (upd regs t m)) /\
    c_abs n (mkC h (wrap_inc n t) (S c) (upd regs t m)) = c_abs n (mkC h t c regs) ++ [m].
  Proof.
    unfold c_inv, c_abs. cbn [c_head c_tail c_count c_regs]. intros (Hh & _ & Ht) Hc.
    assert (t < n) as Hlt by (rewrite Ht; apply Nat.mod_upper_bound; lia). rewrite wrap_mod by exact Hlt.
    split; [split; [exact Hh|split; [lia|]]|].
    - rewrite Ht, Nat.add_mod_idemp_l by lia. f_equal. lia.
    - rewrite seq_S, map_app. cbn [map Nat.add]. unfold upd at 2. rewrite <- Ht, Nat.eqb_refl. f_equal.
      apply map_ext_in. intros j Hj. apply in_seq in Hj. unfold upd.
      destruct (Nat.eqb_spec ((h + j) mod n) t) as [E|]; [|reflexivity].
      contradiction (mod_add_inj n h j c); [lia|congruence].
  Qed.

  (* an enqueue that fires without a dequeue found room (the extra readiness of a full pipe queue needs the
     dequeue to fire); dually a dequeue that fires alone found a message (an empty bypass queue needs the enqueue) *)
  Lemma enq_only_room k n c en de : 0 < n ->
    en && ((c <? n) || is_pipe k && de) = true -> de && ((0 <? c) || is_bypass k && en) = false -> c < n.
  Proof.
    intros Hn H1 H2. destruct de; cbn [andb] in H2.
    - apply orb_false_iff in H2. destruct H2 as [H2 _]. apply Nat.ltb_ge in H2. lia.
    - rewrite andb_false_r, orb_false_r in H1. apply andb_true_iff in H1. apply Nat.ltb_lt, H1.
  Qed.
  Lemma deq_only_nonempty k n c en de : 0 < n ->
    en && ((c <? n) || is_pipe k && de) = false -> de && ((0 <? c) || is_bypass k && en) = true -> 0 < c.
  Proof.
    intros Hn H1 H2. destruct en; cbn [andb] in H1.
    - apply orb_false_iff in H1. destruct H1 as [H1 _]. apply Nat.ltb_ge in H1. lia.
    - rewrite andb_false_r, orb_false_r in H2. apply andb_true_iff in H2. apply Nat.ltb_lt, H2.
  Qed.

  Theorem crtl_sim k n gated : 0 < n ->
    sim1 k n (crtl_step k n gated) (c_abs n) (c_inv n) (fun _ _ => True).
  Proof.
    intros Hn [h t c regs] [rst en m de] Hinv _.
    unfold crtl_step, c_enq_xfer, c_deq_xfer, c_enq_rdy, c_deq_rdy, c_gate, c_ret, offer_of, fifo_step_r.
    cbn [c_head c_tail c_count c_regs i_rst i_enq i_msg i_deq fst snd].
    destruct rst.
    { split; [|split]; [|reflexivity|discriminate].
      split; [exact Hn|]. split; [apply Nat.le_0_l|]. symmetry. apply Nat.mod_small, Hn. }
    assert (Hg : (if gated then negb false else true) = true) by (destruct gated; reflexivity).
    rewrite Hg. cbn [andb].
    unfold fifo_step. rewrite fifo_rdys_len by exact Hn. rewrite c_abs_length. cbn [c_count o_enq o_msg o_deq].
    destruct (en && ((c <? n) || is_pipe k && de)) eqn:Ef, (de && ((0 <? c) || is_bypass k && en)) eqn:Edf;
      cbn [andb negb fst snd].
    - (* enqueue and dequeue in the same cycle *)
      destruct c as [|c'].
      + (* empty: only the bypass queue gets here; the message goes straight through, the pointers move on *)
        apply andb_true_iff in Edf. destruct Edf as [_ Edf]. apply andb_true_iff in Edf. destruct Edf as [-> _].
        destruct (c_enq_abs n h t 0 regs m Hinv Hn) as [I1 _]. apply c_deq_abs in I1.
        split; [exact (proj1 I1)|]. split; [reflexivity|intros _; reflexivity].
      + (* the head leaves, then the message is written past the shortened window *)
        destruct (c_deq_abs n h t c' regs Hinv) as [I1 A1].
        destruct (c_enq_abs n _ t c' regs m I1) as [I2 A2]; [destruct Hinv as (_ & Hc & _); exact Hc|].
        rewrite A1. cbn [Nat.eqb app tl hd_error]. rewrite andb_false_r.
        split; [exact I2|]. split; [exact A2|intros _; reflexivity].
    - (* enqueue only *)
      destruct (c_enq_abs n h t c regs m Hinv (enq_only_room k n c en de Hn Ef Edf)) as [I A]. rewrite Nat.add_1_r.
      split; [exact I|]. split; [exact A|intros _; reflexivity].
    - (* dequeue only *)
      pose proof (deq_only_nonempty k n c en de Hn Ef Edf) as Hgt. destruct c as [|c']; [lia|].
      destruct (c_deq_abs n h t c' regs Hinv) as [I A]. rewrite A. cbn [Nat.eqb tl hd_error Nat.sub]. rewrite andb_false_r, Nat.sub_0_r.
      split; [exact I|]. split; [reflexivity|intros _; reflexivity].
    - (* nothing moves *)
      split; [exact Hinv|]. split; [reflexivity|intros _; reflexivity].
  Qed.

  Lemma c_init_inv n d : 0 < n -> c_inv n (c_init d).
  Proof. intros Hn. split; [exact Hn|]. split; [apply Nat.le_0_l|]. symmetry. apply Nat.mod_small, Hn. Qed.
  Lemma c_init_abs n (d : M) : c_abs n (c_init d) = [].
  Proof. reflexivity. Qed.
End Ctrl.

Section OneEntry.
  Context {M : Type}.

  (* One bit of state: every case is settled by computation. First branch: an input the protocol forbids
     contradicts the legality hypothesis; second: the three parts of sim1 reduce to identities (in a reset cycle the
     output part is void, its premise being true = false).
     Where legality matters: e1 (both sides) and p1 (enqueue side) update full/entry from the raw en signals, so an
     en raised against rdy (an enqueue into a full queue that does not let it through; for e1 also a dequeue from
     an empty one) would corrupt the state, and p1's Normal/Pipe have no reset at all; s1 and v1 gate the update
     with their own rdy/val, hence need no protocol hypothesis. *)
  Ltac by_computation :=
    first [ exfalso; match goal with Hl : _ /\ _ |- _ =>
              destruct Hl as [H1 H2]; first [discriminate (H1 eq_refl)|discriminate (H2 eq_refl)] end
          | split; [exact I|split; [reflexivity|intros H; first [discriminate H|reflexivity]]] ].

  (* queues.py {Normal,Pipe,Bypass}Queue1EntryRTL under the en/rdy protocol *)
  Theorem e1_sim k : sim1 (M:=M) k 1 (e1_step k) o_abs (fun _ => True) (e1_legal k).
  Proof.
    intros [full entry] [rst en m de] _ Hl. unfold e1_legal in Hl.
    destruct rst; [destruct k|destruct k, full, en, de]; cbn in Hl |- *; by_computation.
  Qed.

  (* stream/queues.py {Normal,Pipe,Bypass}Queue1EntryRTL: any val/rdy inputs *)
  Theorem s1_sim k : sim1 (M:=M) k 1 (s1_step k) o_abs (fun _ => True) (fun _ _ => True).
  Proof.
    intros [full entry] [rst en m de] _ _.
    destruct rst; [destruct k|destruct k, full, en, de]; cbn; by_computation.
  Qed.

  (* enrdy_queues.py {Normal,Pipe,Bypass}Queue1RTL: enq.en only when enq.rdy; no reset on Normal/Pipe *)
  Theorem p1_sim k : sim1 (M:=M) k 1 (p1_step k) o_abs (fun _ => True) (p1_legal k).
  Proof.
    intros [full entry] [rst en m de] _ Hl. unfold p1_legal in Hl.
    destruct rst; [destruct k|destruct k, full, en, de]; cbn in Hl |- *; by_computation.
  Qed.

  (* valrdy_queues.py {Normal,Pipe,Bypass}Queue1RTL: any val/rdy inputs, no reset *)
  Theorem v1_sim k : sim1 (M:=M) k 1 (v1_step k) o_abs (fun _ => True) v1_legal.
  Proof.
    intros [full entry] [rst en m de] _ Hl. unfold v1_legal in Hl. cbn in Hl. subst rst.
    destruct k, full, en, de; cbn; by_computation.
  Qed.

  Lemma o_abs_length (s : ostate M) : length (o_abs s) = o_cnt s.
  Proof. destruct s as [[] e]; reflexivity. Qed.
End OneEntry.

Section PtrQueue.
  Context {M : Type}.
  Implicit Types (s : vstate M) (i : rin M).

  (* v_count is (enq_ptr - deq_ptr) mod n, with n in place of 0 when the full bit is set; v_num_free is the code's
     five-way case split of n minus that. The lemmas below that close by `ifs; lia` are this arithmetic.
     Third clause of the invariant: full forces equal pointers; equal pointers without the full bit is the empty queue. *)
  Definition v_inv (n : nat) s : Prop :=
    v_deq_ptr s < n /\ v_enq_ptr s < n /\ (v_full s = true -> v_enq_ptr s = v_deq_ptr s).

  (* the pointer/full representation, read as a head/tail/count state *)
  Definition v2c (n : nat) s : cstate M := mkC (v_deq_ptr s) (v_enq_ptr s) (v_count n s) (v_regs s).

  Lemma v_abs_c n s : v_abs n s = c_abs n (v2c n s).
  Proof. reflexivity. Qed.

  Lemma v_count_le n s : v_inv n s -> v_count n s <= n.
  Proof. intros (Hd & He & Hf). unfold v_count. ifs; lia. Qed.

  Lemma v2c_inv n s : 0 < n -> v_inv n s -> c_inv n (v2c n s).
  Proof.
    intros Hn Hi. pose proof (v_count_le n s Hi) as Hc. destruct Hi as (Hd & He & Hf).
    split; [exact Hd|]. split; [exact Hc|]. cbn [v2c c_head c_tail c_count]. clear Hc. unfold v_count. symmetry.
    destruct (v_full s); [rewrite (Hf eq_refl)|destruct (Nat.leb_spec (v_deq_ptr s) (v_enq_ptr s))].
    - rewrite <- (Nat.mul_1_l n) at 1. rewrite Nat.mod_add by lia. apply Nat.mod_small, Hd.
    - replace (v_deq_ptr s + (v_enq_ptr s - v_deq_ptr s)) with (v_enq_ptr s) by lia. apply Nat.mod_small, He.
    - replace (v_deq_ptr s + (v_enq_ptr s + n - v_deq_ptr s)) with (v_enq_ptr s + 1 * n) by lia.
      rewrite Nat.mod_add by lia. apply Nat.mod_small, He.
  Qed.

  Lemma v_rdys_count n s : 0 < n -> v_inv n s ->
    negb (v_full s) = (v_count n s <? n) /\ negb (v_empty s) = (0 <? v_count n s).
  Proof.
    intros Hn (Hd & He & Hf). unfold v_empty, v_count.
    destruct (v_full s); [specialize (Hf eq_refl)|]; cbn [negb andb]; split; ifs; lia.
  Qed.

  Lemma v_free_count n s i : v_inv n s -> i_rst i = false -> n - v_num_free n s i = v_count n s.
  Proof.
    intros (Hd & He & Hf) Hr. unfold v_num_free, v_empty, v_count. rewrite Hr.
    destruct (v_full s); [specialize (Hf eq_refl)|]; cbn [negb andb]; ifs; lia.
  Qed.

  Lemma v_inc_wrap n p : p < n -> v_inc n p = wrap_inc n p.
  Proof. intros. unfold v_inc, wrap_inc. ifs; lia. Qed.

  (* r, r' arbitrary: the count does not look at the registers (the caller's differ by the written entry) *)
  Lemma cnt_enq n e d (r r' : nat -> M) : e < n -> d < n -> v_count n (mkV e d false r) < n ->
    v_count n (mkV (wrap_inc n e) d (wrap_inc n e =? d) r') = v_count n (mkV e d false r) + 1.
  Proof. unfold v_count, wrap_inc. cbn [v_enq_ptr v_deq_ptr v_full]. intros. ifs; lia. Qed.
  Lemma cnt_deq n e d full (r r' : nat -> M) : v_inv n (mkV e d full r) -> 0 < v_count n (mkV e d full r) ->
    v_count n (mkV e (wrap_inc n d) false r') = v_count n (mkV e d full r) - 1.
  Proof.
    unfold v_inv, v_count, wrap_inc. cbn [v_enq_ptr v_deq_ptr v_full]. intros (Hd & He & Hf) Hc.
    destruct full; [specialize (Hf eq_refl)|]; ifs; lia.
  Qed.
  (* both in one cycle: an enqueue followed by a dequeue *)
  Lemma cnt_both n e d (r r' : nat -> M) : 0 < n -> e < n -> d < n -> v_count n (mkV e d false r) < n ->
    v_count n (mkV (wrap_inc n e) (wrap_inc n d) false r') = v_count n (mkV e d false r).
  Proof.
    intros Hn He Hd Hc. pose proof (cnt_enq n e d r r He Hd Hc) as E.
    rewrite (cnt_deq n (wrap_inc n e) d (wrap_inc n e =? d) r r'), E; [lia| |lia].
    split; [exact Hd|]. split; [apply wrap_lt, Hn|apply Nat.eqb_eq].
  Qed.

  (* the pointer/full-bit state after a cycle in which an enqueue (ex) and/or a dequeue (dx) is taken:
     s' is the body of vq_step with do_enq / do_deq abstracted to ex / dx *)
  Lemma vq_next n s (ex dx : bool) (regs' : nat -> M) :
    0 < n -> v_inv n s -> (ex = true -> v_count n s < n) -> (dx = true -> 0 < v_count n s) ->
    let e' := if ex then wrap_inc n (v_enq_ptr s) else v_enq_ptr s in
    let d' := if dx then wrap_inc n (v_deq_ptr s) else v_deq_ptr s in
    let s' := mkV e' d' (if ex && negb dx && (e' =? v_deq_ptr s) then true
                         else if dx && v_full s then false else v_full s) regs' in
    v_inv n s' /\
    v_count n s' = if ex && negb dx then v_count n s + 1 else if negb ex && dx then v_count n s - 1 else v_count n s.
  Proof.
    intros Hn Hinv Hx Hy. pose proof Hinv as (Hd & He & Hf). destruct s as [e d full regs].
    cbn [v_enq_ptr v_deq_ptr v_full] in *. pose proof (wrap_lt n e Hn) as Hwe. pose proof (wrap_lt n d Hn) as Hwd.
    (* an enqueue is only taken when the queue is not full *)
    assert (ex = true -> full = false) as Hnf.
    { intros E. specialize (Hx E). destruct full; [|reflexivity]. unfold v_count in Hx. cbn [v_full] in Hx. lia. }
    unfold v_inv. cbn [v_enq_ptr v_deq_ptr v_full]. destruct ex, dx; cbn [andb negb];
      try (rewrite (Hnf eq_refl) in * ).
    - split; [split; [|split]; (assumption || discriminate)|]. apply cnt_both; auto.
    - replace (if wrap_inc n e =? d then true else false) with (wrap_inc n e =? d)
        by (destruct (wrap_inc n e =? d); reflexivity).
      split; [|apply cnt_enq; auto]. split; [assumption|]. split; [assumption|]. apply Nat.eqb_eq.
    - split; [|destruct full; apply cnt_deq; auto].
      split; [assumption|]. split; [assumption|]. destruct full; discriminate.
    - split; [|reflexivity]. split; [assumption|]. split; assumption.
  Qed.

  Lemma vq_as_crtl n s i : 0 < n -> v_inv n s ->
    v_inv n (fst (vq_step n s i)) /\
    v2c n (fst (vq_step n s i)) = fst (crtl_step Normal n false (v2c n s) i) /\
    (i_rst i = false -> snd (vq_step n s i) = snd (crtl_step Normal n false (v2c n s) i)).
  Proof.
    intros Hn Hinv. pose proof (v_rdys_count n s Hn Hinv) as [F1 F2].
    pose proof (v_free_count n s i Hinv) as F3. pose proof Hinv as (Hd & He & Hf).
    unfold vq_step, crtl_step, c_enq_xfer, c_deq_xfer, c_enq_rdy, c_deq_rdy, c_gate, c_ret, v2c.
    cbn [c_head c_tail c_count c_regs is_pipe is_bypass andb orb fst snd].
    rewrite F1, F2, !orb_false_r, !v_inc_wrap, (andb_comm _ (i_enq i)) by assumption.
    split; [|split; [|intros Hr; rewrite F3 by exact Hr; reflexivity]]; destruct (i_rst i).
    - split; [exact Hn|split; [exact Hn|discriminate]].
    - apply vq_next; try assumption; intros H; apply andb_true_iff in H; apply Nat.ltb_lt, H.
    - reflexivity.
    - cbn [v_enq_ptr v_deq_ptr v_regs]. f_equal.
      apply vq_next; try assumption; intros H; apply andb_true_iff in H; apply Nat.ltb_lt, H.
  Qed.
  Theorem vq_sim n : 0 < n -> sim1 Normal n (vq_step n) (v_abs n) (v_inv n) (fun _ _ => True).
  Proof.
    intros Hn s i Hinv _.
    destruct (vq_as_crtl n s i Hn Hinv) as (Hi & Hs & Ho).
    destruct (crtl_sim Normal n false Hn (v2c n s) i (v2c_inv n s Hn Hinv) I) as (_ & Ha & Hout).
    split; [assumption|]. split.
    - rewrite !v_abs_c, Hs. exact Ha.
    - intros Hr. rewrite (Ho Hr). rewrite v_abs_c. exact (Hout Hr).
  Qed.

  Lemma v_init_inv n (d : M) : 0 < n -> v_inv n (v_init d).
  Proof. intros. unfold v_inv, v_init; cbn. repeat split; try lia; try discriminate. Qed.
  Lemma v_abs_length n s : length (v_abs n s) = v_count n s.
  Proof. unfold v_abs. now rewrite map_length, seq_length. Qed.
End PtrQueue.

Section CL.
  Context {M : Type}.

  (* whatever order the scheduler picks for NormalQueueCL, the cycle is the specification's cycle *)
  Theorem cl_step_spec k n enq_first (q : list M) o : 0 < n -> length q <= n ->
    cl_step k n enq_first q o = fifo_step k n q o.
  Proof.
    intros Hn Hq. unfold fifo_step. rewrite fifo_rdys_len by exact Hn.
    unfold cl_step, cl_enq_rdy, cl_deq_rdy, cl_enq, cl_deq. cbn zeta.
    destruct k; cbn [is_pipe is_bypass andb]; rewrite ?orb_false_r.
    - (* Normal: both call orders *)
      destruct enq_first; [reflexivity|].
      destruct (o_enq o && (length q <? n)) eqn:Ef, (o_deq o && (0 <? length q)) eqn:Ed; cbn [fst snd]; try reflexivity.
      destruct q as [|a q]; [cbn in Ed; rewrite andb_false_r in Ed; discriminate|]. reflexivity.
    - (* Pipe: deq, then enq.rdy is evaluated on the shortened deque *)
      destruct q as [|a q].
      + cbn [length tl hd_error fst snd]. replace (0 <? 0) with false by reflexivity.
        rewrite !andb_false_r. cbn [length]. replace (0 <? n) with true by lia. cbn [orb]. reflexivity.
      + cbn [length]. replace (0 <? S (length q)) with true by reflexivity. rewrite !andb_true_r.
        destruct (o_deq o); cbn [fst snd tl hd_error length orb].
        * replace (length q <? n) with true by (cbn [length] in Hq; lia). rewrite orb_true_r.
          destruct (o_enq o); reflexivity.
        * rewrite orb_false_r. reflexivity.
    - (* Bypass: enq, then deq.rdy is evaluated on the lengthened deque *)
      destruct (o_enq o) eqn:Ee; cbn [andb orb]; rewrite ?orb_false_r, ?orb_true_r.
      + destruct (length q <? n) eqn:El; cbn [orb].
        * rewrite app_length. cbn [length]. replace (0 <? length q + 1) with true by lia. reflexivity.
        * replace (0 <? length q) with true by lia. reflexivity.
      + reflexivity.
  Qed.
End CL.

(* the CL queue as a machine over the common input record (there is no reset behaviour: legal = no reset) *)
Section CLMachine.
  Context {M : Type}.
  Definition cl_mstep (k : qkind) (n : nat) (enq_first : bool) (q : list M) (i : rin M) : list M * fout M :=
    cl_step k n enq_first q (offer_of i).
  Theorem cl_sim k n enq_first : 0 < n ->
    sim1 k n (cl_mstep k n enq_first) (fun q => q) (fun q => length q <= n) (fun _ i => i_rst i = false).
  Proof.
    intros Hn q i Hq Hr. unfold cl_mstep, fifo_step_r. rewrite Hr. rewrite cl_step_spec by assumption.
    pose proof (fifo_step_bound k n q (offer_of i) Hq) as Hb.
    destruct (fifo_step k n q (offer_of i)) as [q' f]. cbn [fst snd] in *. auto.
  Qed.
End CLMachine.

Section Corollaries.
  Context {M S : Type}.
  Variables (k : qkind) (n : nat).
  Variable step : S -> rin M -> S * fout M.
  Variable abs : S -> list M.
  Variable inv : S -> Prop.
  Variable legal : S -> rin M -> Prop.
  Hypothesis Hsim : sim1 k n step abs inv legal.
  Hypothesis Hbound : forall s, inv s -> length (abs s) <= n.

  Definition rst_free (is : list (rin M)) : Prop := Forall (fun i => i_rst i = false) is.

  Lemma rst_free_offers is : rst_free is -> no_reset (offers_of is).
  Proof. unfold rst_free, no_reset, offers_of. rewrite Forall_map. apply Forall_impl. auto. Qed.

  (* the two legality predicates of the models without a protocol: every (reset-free) run is legal *)
  Lemma legal_run_trivial is : forall s, legal_run step (fun _ _ => True) s is.
  Proof. induction is; cbn; auto. Qed.
  Lemma legal_run_rst_free is : rst_free is -> forall s, legal_run step (fun _ i => i_rst i = false) s is.
  Proof. induction 1 as [|i r Hi _ IH]; intros s; cbn; auto. Qed.

  Lemma step_spec s i : inv s -> legal s i -> i_rst i = false ->
    abs (fst (step s i)) = fst (fifo_step k n (abs s) (offer_of i)) /\
    snd (step s i) = snd (fifo_step k n (abs s) (offer_of i)).
  Proof.
    intros Hi Hl Hr. pose proof (sim1_r k n step abs inv legal Hsim s i Hi Hl) as E.
    unfold fifo_step_r in E. rewrite Hr in E. destruct (fifo_step k n (abs s) (offer_of i)).
    injection E as -> <-. split; reflexivity.
  Qed.

  (* one cycle: the ready/valid outputs are exactly the rules of the property, the count is exact and bounded *)
  Theorem step_rules s i : inv s -> legal s i -> i_rst i = false ->
    let f := snd (step s i) in
    (f_enq_rdy f = true <-> (length (abs s) < n \/ (k = Pipe /\ f_deq_fire f = true))) /\
    (f_deq_rdy f = true <-> (0 < length (abs s) \/ (k = Bypass /\ f_enq_fire f = true))) /\
    f_enq_fire f = (i_enq i && f_enq_rdy f)%bool /\ f_deq_fire f = (i_deq i && f_deq_rdy f)%bool /\
    (f_msg f <> None <-> f_deq_fire f = true) /\
    f_count f = length (abs s) /\ f_count f <= n.
  Proof.
    intros Hi Hl Hr. cbn zeta. rewrite (proj2 (step_spec s i Hi Hl Hr)).
    pose proof (fifo_fire_rule k n (abs s) (offer_of i)) as [F1 F2].
    split; [apply fifo_enq_rdy_rule|]. split; [apply fifo_deq_rdy_rule|]. split; [exact F1|]. split; [exact F2|].
    split; [apply fifo_step_msg_iff|]. rewrite fifo_step_count. auto.
  Qed.

  (* one cycle: the state moves like the abstract queue; a delivered message is the oldest one (or, for an empty
     bypass queue, the message being accepted) *)
  Theorem step_state s i : inv s -> legal s i -> i_rst i = false ->
    let f := snd (step s i) in
    abs s ++ (if f_enq_fire f then [i_msg i] else []) =
    (match f_msg f with Some m => [m] | None => [] end) ++ abs (fst (step s i)).
  Proof.
    intros Hi Hl Hr. destruct (step_spec s i Hi Hl Hr) as [-> ->]. apply fifo_step_conserve.
  Qed.

  Theorem step_reset s i : inv s -> legal s i -> i_rst i = true -> abs (fst (step s i)) = [] /\ inv (fst (step s i)).
  Proof.
    intros Hi Hl Hr. destruct (Hsim s i Hi Hl) as (Hi' & Ha & _). unfold fifo_step_r in Ha. rewrite Hr in Ha. auto.
  Qed.

  Theorem run_conserve is s : inv s -> legal_run step legal s is -> rst_free is ->
    abs s ++ accepted (offers_of is) (snd (run step s is)) = delivered (snd (run step s is)) ++ abs (fst (run step s is)).
  Proof.
    intros Hi Hl Hr. destruct (sim1_run k n step abs inv legal Hsim is s Hi Hl) as (A & B & _). rewrite A, B.
    apply fifo_run_conserve. apply rst_free_offers. assumption.
  Qed.

  (* from an empty queue: delivered is a prefix of accepted and the rest is still queued, in order, nothing else *)
  Theorem run_fifo is s : inv s -> abs s = [] -> legal_run step legal s is -> rst_free is ->
    accepted (offers_of is) (snd (run step s is)) = delivered (snd (run step s is)) ++ abs (fst (run step s is)) /\
    length (abs (fst (run step s is))) <= n.
  Proof.
    intros Hi He Hl Hr. pose proof (run_conserve is s Hi Hl Hr) as Hc. rewrite He in Hc. split; [exact Hc|].
    apply Hbound. apply (sim1_run k n step abs inv legal Hsim is s Hi Hl).
  Qed.
End Corollaries.

Section Models.
  Context {M : Type}.
  Lemma c_bound n (s : cstate M) : c_inv n s -> length (c_abs n s) <= n.
  Proof. intros (_ & H & _). now rewrite c_abs_length. Qed.
  (* True ->: the shape of run_fifo's bound hypothesis for the invariant fun _ => True of the one-entry queues *)
  Lemma o_bound (s : ostate M) : True -> length (o_abs s) <= 1.
  Proof. intros _. destruct s as [[] e]; cbn; lia. Qed.
  Lemma v_bound n (s : vstate M) : v_inv n s -> length (v_abs n s) <= n.
  Proof.
    intros H. rewrite v_abs_length. apply v_count_le, H.
  Qed.
  Lemma crtl_run_fifo k n gated (d : M) is : 0 < n -> rst_free is ->
    let r := run (crtl_step k n gated) (c_init d) is in
    accepted (offers_of is) (snd r) = delivered (snd r) ++ c_abs n (fst r) /\ c_count (fst r) = length (c_abs n (fst r)) /\
    length (c_abs n (fst r)) <= n.
  Proof.
    intros Hn Hr. cbn zeta.
    destruct (run_fifo k n _ _ _ _ (crtl_sim k n gated Hn) (c_bound n) is (c_init d) (c_init_inv n d Hn) (c_init_abs n d)
                (legal_run_trivial _ is _) Hr) as [A B].
    split; [exact A|]. split; [symmetry; apply c_abs_length|exact B].
  Qed.

  Lemma crtl_reset k n gated (s : cstate M) i : 0 < n -> c_inv n s -> i_rst i = true ->
    fst (crtl_step k n gated s i) = mkC 0 0 0 (c_regs (fst (crtl_step k n gated s i))) /\ c_abs n (fst (crtl_step k n gated s i)) = [].
  Proof.
    intros Hn Hi Hr. split.
    - unfold crtl_step. rewrite Hr. reflexivity.
    - exact (proj1 (step_reset k n _ _ _ _ (crtl_sim k n gated Hn) s i Hi I Hr)).
  Qed.

  Lemma cl_run_fifo k n enq_first (is : list (rin M)) : 0 < n -> rst_free is ->
    let r := run (cl_mstep k n enq_first) [] is in
    accepted (offers_of is) (snd r) = delivered (snd r) ++ fst r /\ length (fst r) <= n.
  Proof.
    intros Hn Hr.
    exact (run_fifo k n _ (fun q => q) (fun q => length q <= n) _ (cl_sim k n enq_first Hn) (fun q H => H) is []
             (Nat.le_0_l n) eq_refl (legal_run_rst_free _ is Hr []) Hr).
  Qed.
End Models.

Section Stream.
  Open Scope Z_scope.
  Lemma stream_step_sound cap q c q' : b_rst c = false -> stream_step cap q c = Some q' ->
    q ++ (if b_enq_fire c then [b_msg c] else []) = (if b_deq_fire c then [b_out c] else []) ++ q' /\ (length q' <= cap)%nat.
  Proof.
    intros Hr. unfold stream_step. rewrite Hr.
    replace (q ++ (if b_enq_fire c then [b_msg c] else [])) with (if b_enq_fire c then q ++ [b_msg c] else q)
      by (destruct (b_enq_fire c); [reflexivity|symmetry; apply app_nil_r]).
    generalize (if b_enq_fire c then q ++ [b_msg c] else q) as q1. intros q1.
    destruct (b_deq_fire c); cbn [app].
    - destruct q1 as [|m t]; [discriminate|].
      destruct (b_out c =? m) eqn:Em; cbn [andb]; [|discriminate].
      destruct (length t <=? cap)%nat eqn:El; [|discriminate]. intros H; inversion H; subst.
      apply Z.eqb_eq in Em. subst. split; [reflexivity|]. apply Nat.leb_le. assumption.
    - destruct (length q1 <=? cap)%nat eqn:El; [|discriminate]. intros H; inversion H; subst.
      split; [reflexivity|]. apply Nat.leb_le. assumption.
  Qed.

  (* accepted by the acceptor => the delivered stream is the accepted stream minus what is still outstanding:
     same values, same order, nothing lost, duplicated or invented; never more than cap outstanding *)
  Theorem stream_run_sound cap h : Forall (fun c => b_rst c = false) h -> forall q q', (length q <= cap)%nat ->
    stream_run cap q h = Some q' ->
    q ++ obs_accepted h = obs_delivered h ++ q' /\ (length q' <= cap)%nat.
  Proof.
    induction 1 as [|c r Hc Hr IH]; intros q q' Hq; cbn [stream_run].
    - intros E; inversion E; subst. unfold obs_accepted, obs_delivered. cbn. rewrite app_nil_r. auto.
    - destruct (stream_step cap q c) as [q1|] eqn:Es; [|discriminate]. intros Hrun.
      destruct (stream_step_sound cap q c q1 Hc Es) as [H1 H2].
      destruct (IH q1 q' H2 Hrun) as [H3 H4]. split; [|assumption].
      unfold obs_accepted, obs_delivered in *. cbn [flat_map].
      rewrite app_assoc, H1, <- !app_assoc, H3. reflexivity.
  Qed.

  Corollary stream_drained_sound cap h : Forall (fun c => b_rst c = false) h ->
    stream_run cap [] h = Some [] -> obs_delivered h = obs_accepted h.
  Proof.
    intros Hr E. destruct (stream_run_sound cap h Hr [] [] (Nat.le_0_l cap) E) as [H _].
    cbn in H. rewrite app_nil_r in H. auto.
  Qed.

  Lemma stream_first_bad_none cap h : forall q i, stream_first_bad cap q i h = None -> stream_run cap q h = Some [].
  Proof.
    induction h as [|c r IH]; intros q i; cbn.
    - destruct q; [reflexivity|discriminate].
    - destruct (stream_step cap q c); [apply IH|discriminate].
  Qed.
End Stream.

Section Head.
  Context {M : Type}.
  Lemma fifo_head_delivered k n (q : list M) o :
    f_deq_fire (snd (fifo_step k n q o)) = true ->
    f_msg (snd (fifo_step k n q o)) = fifo_head q o (snd (fifo_step k n q o)).
  Proof.
    unfold fifo_step, fifo_head. destruct (fifo_rdys k n q o) as [er dr]. cbn [snd f_deq_fire f_deq_rdy f_enq_fire f_msg].
    destruct dr; [|rewrite andb_false_r; discriminate]. intros H. rewrite H. reflexivity.
  Qed.
  Lemma fifo_head_oldest k n (a : M) q o : fifo_head (a :: q) o (snd (fifo_step k n (a :: q) o)) = Some a.
  Proof.
    unfold fifo_step, fifo_head. rewrite fifo_rdys_eq. cbn [q_empty negb orb snd f_deq_rdy f_enq_fire].
    destruct (o_enq o && _); reflexivity.
  Qed.
  (* the consumer of a CL queue that peeks and then dequeues in the same block gets the peeked message *)
  Lemma cl_peek_then_deq k n enq_first (q : list M) o :
    f_deq_fire (snd (cl_step k n enq_first q o)) = true ->
    (k = Pipe -> enq_first = false) -> (k = Bypass -> enq_first = true) ->
    f_msg (snd (cl_step k n enq_first q o)) = cl_peek (cl_at_consumer enq_first q o (snd (cl_step k n enq_first q o))).
  Proof.
    intros Hf Hp Hb.
    (* in each admitted order the delivered message is the head of the deque as the consumer finds it *)
    destruct k; [destruct enq_first|rewrite (Hp eq_refl) in *|rewrite (Hb eq_refl) in *];
      unfold cl_step, cl_at_consumer, cl_peek, cl_deq, cl_enq in *; cbv zeta in *;
      cbn [snd fst f_deq_fire f_enq_fire f_msg andb] in *; rewrite Hf;
      try destruct (o_enq o && cl_enq_rdy n q); reflexivity.
  Qed.
End Head.
