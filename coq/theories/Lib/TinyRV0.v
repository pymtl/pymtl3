(* Lib/TinyRV0.v — the TinyRV0 instruction set architecture, written from the DOCUMENT
   examples/ex03_proc/tinyrv0-isa.md (sections "Architectural State", "Instruction and Immediate
   Encoding", "Instruction Details", "Privileged ISA"), NOT from ProcFL.py / ProcCL.py / ProcRTL.py.
   Definitions only (computable; evaluated with vm_compute by harness/c20.py); proofs are in TinyRV0Proofs.v.

   Accelerator registers (xcelregXX): the document makes them transactions with "an accelerator" whose semantics it
   does not fix; the model is instantiated with the NullXcel the ex03 harness attaches (see `xcel_read/xcel_write`).
   Where the document says "undefined" (unaligned lw/sw, addresses above 0x000fffff, writing mngr2proc,
   reading proc2mngr), for CSR numbers it does not list, and where it says "stall"
   (csrr mngr2proc on an empty FIFO), `step` returns None: the model does not choose a behaviour.
   A word that is not one of the ten instructions (e.g. the all-zero word after the program) also gives None;
   `run` stops there, which is how the differential harness detects the end of a program. *)
From PV Require Import Base.Prelude.
From Coq Require Import FSets.FMapPositive.
Open Scope Z_scope.

(* ------------------------------------------------------------------ data formats *)
Definition XLEN : Z := 4294967296.                 (* 2^32 : "Each register is 32 bits wide" *)
Definition wrap32 (x : Z) : Z := x mod XLEN.
Definition MEM_TOP : Z := 1048575.                  (* 0x000fffff, last byte of the 1MB address space *)
Definition RESET_VECTOR : Z := 512.                 (* 0x00000200 *)
Definition CSR_PROC2MNGR : Z := 1984.               (* 0x7C0 *)
Definition CSR_MNGR2PROC : Z := 4032.               (* 0xFC0 *)

(* inst[hi:lo] in the document's notation *)
Definition bits (w lo hi : Z) : Z := (w / 2 ^ lo) mod 2 ^ (hi - lo + 1).
(* signed value of an n-bit field ("all immediates are always sign extended") *)
Definition sext (n v : Z) : Z := if v <? 2 ^ (n - 1) then v else v - 2 ^ n.

(* ------------------------------------------------------------------ instructions *)
(* register specifiers are 0..31, csr numbers 0..4095, imm is the SIGNED immediate value
   (I/S-immediate: -2048..2047;  B-immediate: even, -4096..4094) *)
Inductive instr : Set :=
| CSRR (rd csr : Z)            (* csrr rd, csr      R[rd] = CSR[csr]                       I-type *)
| CSRW (csr rs1 : Z)           (* csrw csr, rs1     CSR[csr] = R[rs1]                      I-type *)
| ADD  (rd rs1 rs2 : Z)        (* R[rd] = R[rs1] + R[rs2]                                  R-type *)
| AND  (rd rs1 rs2 : Z)        (* R[rd] = R[rs1] & R[rs2]                                  R-type *)
| SLL  (rd rs1 rs2 : Z)        (* R[rd] = R[rs1] << R[rs2][4:0]                            R-type *)
| SRL  (rd rs1 rs2 : Z)        (* R[rd] = R[rs1] >> R[rs2][4:0]                            R-type *)
| ADDI (rd rs1 imm : Z)        (* R[rd] = R[rs1] + sext(imm)                               I-type *)
| LW   (rd rs1 imm : Z)        (* R[rd] = M_4B[ R[rs1] + sext(imm) ]                       I-type *)
| SW   (rs2 rs1 imm : Z)       (* M_4B[ R[rs1] + sext(imm) ] = R[rs2]                      S-type, S-imm *)
| BNE  (rs1 rs2 imm : Z).      (* PC = ( R[rs1] != R[rs2] ) ? PC + sext(imm) : PC + 4      S-type, B-imm *)

Definition is_reg (r : Z) : Prop := 0 <= r < 32.
Definition is_imm12 (i : Z) : Prop := -2048 <= i < 2048.
Definition is_immb (i : Z) : Prop := -4096 <= i < 4096 /\ i mod 2 = 0.
Definition is_csr (c : Z) : Prop := 0 <= c < 4096.

Definition wf_instr (i : instr) : Prop :=
  match i with
  | CSRR rd csr => is_reg rd /\ is_csr csr
  | CSRW csr rs1 => is_csr csr /\ is_reg rs1
  | ADD rd rs1 rs2 | AND rd rs1 rs2 | SLL rd rs1 rs2 | SRL rd rs1 rs2 => is_reg rd /\ is_reg rs1 /\ is_reg rs2
  | ADDI rd rs1 imm | LW rd rs1 imm => is_reg rd /\ is_reg rs1 /\ is_imm12 imm
  | SW rs2 rs1 imm => is_reg rs2 /\ is_reg rs1 /\ is_imm12 imm
  | BNE rs1 rs2 imm => is_reg rs1 /\ is_reg rs2 /\ is_immb imm
  end.

Definition regb (r : Z) : bool := (0 <=? r) && (r <? 32).
Definition wf_instrb (i : instr) : bool :=
  match i with
  | CSRR rd csr => regb rd && (0 <=? csr) && (csr <? 4096)
  | CSRW csr rs1 => (0 <=? csr) && (csr <? 4096) && regb rs1
  | ADD rd rs1 rs2 | AND rd rs1 rs2 | SLL rd rs1 rs2 | SRL rd rs1 rs2 => regb rd && regb rs1 && regb rs2
  | ADDI rd rs1 imm | LW rd rs1 imm => regb rd && regb rs1 && (-2048 <=? imm) && (imm <? 2048)
  | SW rs2 rs1 imm => regb rs2 && regb rs1 && (-2048 <=? imm) && (imm <? 2048)
  | BNE rs1 rs2 imm => regb rs1 && regb rs2 && (-4096 <=? imm) && (imm <? 4096) && (imm mod 2 =? 0)
  end.

(* ------------------------------------------------------------------ encoding (the document's tables)
     31        25 24     20 19     15 14  12 11      7 6           0
    | funct7     | rs2     | rs1     |funct3| rd      | opcode      |   R-type
    | imm                  | rs1     |funct3| rd      | opcode      |   I-type
    | imm        | rs2     | rs1     |funct3| imm     | opcode      |   S-type                         *)
Definition OPC_SYSTEM : Z := 115.  (* 1110011 *)
Definition OPC_OP     : Z := 51.   (* 0110011 *)
Definition OPC_OPIMM  : Z := 19.   (* 0010011 *)
Definition OPC_LOAD   : Z := 3.    (* 0000011 *)
Definition OPC_STORE  : Z := 35.   (* 0100011 *)
Definition OPC_BRANCH : Z := 99.   (* 1100011 *)

Definition enc_r (funct7 rs2 rs1 funct3 rd opcode : Z) : Z :=
  funct7 * 2 ^ 25 + rs2 * 2 ^ 20 + rs1 * 2 ^ 15 + funct3 * 2 ^ 12 + rd * 2 ^ 7 + opcode.
(* I-immediate: inst[31:20] = imm[11:0] *)
Definition enc_i (imm rs1 funct3 rd opcode : Z) : Z :=
  (imm mod 4096) * 2 ^ 20 + rs1 * 2 ^ 15 + funct3 * 2 ^ 12 + rd * 2 ^ 7 + opcode.
(* S-immediate: inst[31:25] = imm[11:5], inst[11:7] = imm[4:0] *)
Definition enc_s (imm rs2 rs1 funct3 opcode : Z) : Z :=
  let u := imm mod 4096 in
  bits u 5 11 * 2 ^ 25 + rs2 * 2 ^ 20 + rs1 * 2 ^ 15 + funct3 * 2 ^ 12 + bits u 0 4 * 2 ^ 7 + opcode.
(* B-immediate: inst[31] = imm[12], inst[30:25] = imm[10:5], inst[11:8] = imm[4:1], inst[7] = imm[11] *)
Definition enc_b (imm rs2 rs1 funct3 opcode : Z) : Z :=
  let u := imm mod 8192 in
  bits u 12 12 * 2 ^ 31 + bits u 5 10 * 2 ^ 25 + rs2 * 2 ^ 20 + rs1 * 2 ^ 15 + funct3 * 2 ^ 12
  + bits u 1 4 * 2 ^ 8 + bits u 11 11 * 2 ^ 7 + opcode.

Definition encode (i : instr) : Z :=
  match i with
  | CSRR rd csr     => enc_i csr 0 2 rd OPC_SYSTEM        (* csrrs rd, csr, x0 : funct3 010 *)
  | CSRW csr rs1    => enc_i csr rs1 1 0 OPC_SYSTEM       (* csrrw x0, csr, rs1 : funct3 001 *)
  | ADD rd rs1 rs2  => enc_r 0 rs2 rs1 0 rd OPC_OP        (* 0000000 .. 000 *)
  | AND rd rs1 rs2  => enc_r 0 rs2 rs1 7 rd OPC_OP        (* 0000000 .. 111 *)
  | SLL rd rs1 rs2  => enc_r 0 rs2 rs1 1 rd OPC_OP        (* 0000000 .. 001 *)
  | SRL rd rs1 rs2  => enc_r 0 rs2 rs1 5 rd OPC_OP        (* 0000000 .. 101 *)
  | ADDI rd rs1 imm => enc_i imm rs1 0 rd OPC_OPIMM       (* 000 *)
  | LW rd rs1 imm   => enc_i imm rs1 2 rd OPC_LOAD        (* 010 *)
  | SW rs2 rs1 imm  => enc_s imm rs2 rs1 2 OPC_STORE      (* 010 *)
  | BNE rs1 rs2 imm => enc_b imm rs2 rs1 1 OPC_BRANCH     (* 001 *)
  end.

(* immediates out of an instruction word (the document's immediate diagrams) *)
Definition imm_i (w : Z) : Z := sext 12 (bits w 20 31).
Definition imm_s (w : Z) : Z := sext 12 (bits w 25 31 * 32 + bits w 7 11).
Definition imm_b (w : Z) : Z :=
  sext 13 (bits w 31 31 * 4096 + bits w 7 7 * 2048 + bits w 25 30 * 32 + bits w 8 11 * 2).

Definition decode (w : Z) : option instr :=
  if negb ((0 <=? w) && (w <? XLEN)) then None else
  let opcode := bits w 0 6 in
  let rd := bits w 7 11 in
  let funct3 := bits w 12 14 in
  let rs1 := bits w 15 19 in
  let rs2 := bits w 20 24 in
  let funct7 := bits w 25 31 in
  if opcode =? OPC_SYSTEM then
    if funct3 =? 2 then (if rs1 =? 0 then Some (CSRR rd (bits w 20 31)) else None)
    else if funct3 =? 1 then (if rd =? 0 then Some (CSRW (bits w 20 31) rs1) else None)
    else None
  else if opcode =? OPC_OP then
    if funct7 =? 0 then
      if funct3 =? 0 then Some (ADD rd rs1 rs2)
      else if funct3 =? 7 then Some (AND rd rs1 rs2)
      else if funct3 =? 1 then Some (SLL rd rs1 rs2)
      else if funct3 =? 5 then Some (SRL rd rs1 rs2)
      else None
    else None
  else if opcode =? OPC_OPIMM then (if funct3 =? 0 then Some (ADDI rd rs1 (imm_i w)) else None)
  else if opcode =? OPC_LOAD then (if funct3 =? 2 then Some (LW rd rs1 (imm_i w)) else None)
  else if opcode =? OPC_STORE then (if funct3 =? 2 then Some (SW rs2 rs1 (imm_s w)) else None)
  else if opcode =? OPC_BRANCH then (if funct3 =? 1 then Some (BNE rs1 rs2 (imm_b w)) else None)
  else None.

(* `nop` of the assembler is addi x0, x0, 0 *)
Definition nop : instr := ADDI 0 0 0.

(* ------------------------------------------------------------------ architectural state *)
(* memory: byte address -> byte (absent = 0), little endian *)
Definition memory := PositiveMap.t Z.
Definition mkey (a : Z) : positive := Z.to_pos (a + 1).
Definition mem_byte (m : memory) (a : Z) : Z :=
  match PositiveMap.find (mkey a) m with Some b => b mod 256 | None => 0 end.
Definition set_byte (m : memory) (a b : Z) : memory := PositiveMap.add (mkey a) (b mod 256) m.

(* M_4B[a]: the byte at the lowest address is the least significant one *)
Definition load4 (m : memory) (a : Z) : Z :=
  mem_byte m a + mem_byte m (a + 1) * 256 + mem_byte m (a + 2) * 65536 + mem_byte m (a + 3) * 16777216.
Definition store4 (m : memory) (a v : Z) : memory :=
  set_byte (set_byte (set_byte (set_byte m a v) (a + 1) (v / 256)) (a + 2) (v / 65536)) (a + 3) (v / 16777216).

(* 32 registers; x0 is hard-wired to zero: writes to it are discarded *)
Definition regfile := list Z.
Definition rget (rf : regfile) (i : Z) : Z := nth (Z.to_nat i) rf 0.
Fixpoint upd (n : nat) (v : Z) (l : list Z) : list Z :=
  match l, n with
  | [], _ => []
  | _ :: t, O => v :: t
  | h :: t, S k => h :: upd k v t
  end.
Definition rset (rf : regfile) (i v : Z) : regfile :=
  if i <=? 0 then rf else upd (Z.to_nat i) (wrap32 v) rf.

(* ---- the accelerator.  The document: "xcelregXX (0x7e0-0x7ff): Used to communicate data to/from the processor
   and an accelerator.  The exact semantics of each register is specific to each accelerator."  So csrw/csrr on
   these numbers are a write/read transaction with the accelerator, in program order, and what a read returns is
   the accelerator's business.  The ex03 test harness composes every processor with NullXcelRTL
   (examples/ex03_proc/NullXcel.py); THIS PART is modelled from that component, not from the ISA document:
   one 32-bit register xr0 (0 before the first write); a write to ANY xcelreg stores the data into xr0,
   a read of ANY xcelreg returns xr0 and changes nothing. *)
Definition XCEL_LO : Z := 2016.   (* 0x7E0 *)
Definition XCEL_HI : Z := 2047.   (* 0x7FF *)
Definition is_xcelreg (csr : Z) : bool := (XCEL_LO <=? csr) && (csr <=? XCEL_HI).
Definition xcel_state := Z.
Definition xcel_reset : xcel_state := 0.
Definition xcel_write (x : xcel_state) (addr v : Z) : xcel_state := wrap32 v.
Definition xcel_read (x : xcel_state) (addr : Z) : Z * xcel_state := (x, x).

Record state : Type := mkState {
  pc : Z;
  regs : regfile;
  mem : memory;
  mngr2proc : list Z;        (* FIFO from the manager, head first *)
  proc2mngr_rev : list Z;    (* values enqueued for the manager, newest first *)
  xcel : xcel_state          (* state of the accelerator the processor is composed with *)
}.

Definition outputs (s : state) : list Z := rev (proc2mngr_rev s).

(* a 4-byte access is defined only if aligned and inside the 1MB space *)
Definition valid_word_addr (a : Z) : bool := (0 <=? a) && (a + 3 <=? MEM_TOP) && (a mod 4 =? 0).

Definition next_pc (s : state) : Z := wrap32 (pc s + 4).

Definition exec (i : instr) (s : state) : option state :=
  let R := rget (regs s) in
  match i with
  | CSRR rd csr =>
      if csr =? CSR_MNGR2PROC then
        match mngr2proc s with
        | [] => None                                              (* "will stall if the FIFO has no valid data" *)
        | v :: q => Some (mkState (next_pc s) (rset (regs s) rd v) (mem s) q (proc2mngr_rev s) (xcel s))
        end
      else if is_xcelreg csr then                                 (* read transaction with the accelerator, register csr[4:0] *)
        let '(v, x') := xcel_read (xcel s) (csr mod 32) in
        Some (mkState (next_pc s) (rset (regs s) rd v) (mem s) (mngr2proc s) (proc2mngr_rev s) x')
      else None                                                   (* proc2mngr: "reading the register is undefined"; others: not in the ISA *)
  | CSRW csr rs1 =>
      if csr =? CSR_PROC2MNGR then
        Some (mkState (next_pc s) (regs s) (mem s) (mngr2proc s) (R rs1 :: proc2mngr_rev s) (xcel s))
      else if is_xcelreg csr then                                 (* write transaction with the accelerator *)
        Some (mkState (next_pc s) (regs s) (mem s) (mngr2proc s) (proc2mngr_rev s) (xcel_write (xcel s) (csr mod 32) (R rs1)))
      else None                                                   (* mngr2proc: "writing the register is undefined"; others: not in the ISA *)
  | ADD rd rs1 rs2 =>
      Some (mkState (next_pc s) (rset (regs s) rd (R rs1 + R rs2)) (mem s) (mngr2proc s) (proc2mngr_rev s) (xcel s))
  | AND rd rs1 rs2 =>
      Some (mkState (next_pc s) (rset (regs s) rd (Z.land (R rs1) (R rs2))) (mem s) (mngr2proc s) (proc2mngr_rev s) (xcel s))
  | SLL rd rs1 rs2 =>
      Some (mkState (next_pc s) (rset (regs s) rd (R rs1 * 2 ^ (R rs2 mod 32))) (mem s) (mngr2proc s) (proc2mngr_rev s) (xcel s))
  | SRL rd rs1 rs2 =>
      Some (mkState (next_pc s) (rset (regs s) rd (R rs1 / 2 ^ (R rs2 mod 32))) (mem s) (mngr2proc s) (proc2mngr_rev s) (xcel s))
  | ADDI rd rs1 imm =>
      Some (mkState (next_pc s) (rset (regs s) rd (R rs1 + imm)) (mem s) (mngr2proc s) (proc2mngr_rev s) (xcel s))
  | LW rd rs1 imm =>
      let a := wrap32 (R rs1 + imm) in
      if valid_word_addr a then
        Some (mkState (next_pc s) (rset (regs s) rd (load4 (mem s) a)) (mem s) (mngr2proc s) (proc2mngr_rev s) (xcel s))
      else None
  | SW rs2 rs1 imm =>
      let a := wrap32 (R rs1 + imm) in
      if valid_word_addr a then
        Some (mkState (next_pc s) (regs s) (store4 (mem s) a (R rs2)) (mngr2proc s) (proc2mngr_rev s) (xcel s))
      else None
  | BNE rs1 rs2 imm =>
      Some (mkState (if R rs1 =? R rs2 then next_pc s else wrap32 (pc s + imm))
                    (regs s) (mem s) (mngr2proc s) (proc2mngr_rev s) (xcel s))
  end.

Definition fetch (s : state) : option instr :=
  if valid_word_addr (pc s) then decode (load4 (mem s) (pc s)) else None.

Definition step (s : state) : option state :=
  match fetch s with
  | None => None
  | Some i => exec i s
  end.

Fixpoint run (fuel : nat) (s : state) : state :=
  match fuel with
  | O => s
  | S n => match step s with None => s | Some s' => run n s' end
  end.

Definition halted (s : state) : bool := match step s with None => true | Some _ => false end.

(* ------------------------------------------------------------------ helpers for the differential harness *)
Fixpoint store_words (m : memory) (a : Z) (ws : list Z) : memory :=
  match ws with
  | [] => m
  | w :: r => store_words (store4 m a w) (a + 4) r
  end.

Definition zero_regs : regfile := repeat 0 32.

(* sections: (base address, words) *)
Definition init_state (sections : list (Z * list Z)) (inputs : list Z) : state :=
  mkState RESET_VECTOR zero_regs
          (fold_left (fun m sec => store_words m (fst sec) (snd sec)) sections (PositiveMap.empty Z))
          inputs [] xcel_reset.

Fixpoint load_words (m : memory) (a : Z) (n : nat) : list Z :=
  match n with O => [] | S k => load4 m a :: load_words m (a + 4) k end.

Fixpoint list_eqb (a b : list Z) : bool :=
  match a, b with
  | [], [] => true
  | x :: a', y :: b' => (x =? y) && list_eqb a' b'
  | _, _ => false
  end.

(* every non-zero byte the model's memory holds lies inside one of the windows [lo, hi) *)
Definition mem_within (m : memory) (windows : list (Z * Z)) : bool :=
  forallb (fun kv => let a := Z.pos (fst kv) - 1 in
                     (snd kv mod 256 =? 0) || existsb (fun w => (fst w <=? a) && (a <? snd w)) windows)
          (PositiveMap.elements m).
