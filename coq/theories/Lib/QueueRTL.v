(* Lib/QueueRTL.v — concrete models that mirror the STRUCTURE of pymtl3's RTL queues (model only, no proofs).

   crtl_*   : the multi-entry queues = *CtrlRTL (head / tail / count registers, wrap-around at n-1, the
              enq_rdy / deq_rdy / xfer equations) + *DpathRTL (register file written at tail when enq_xfer,
              read combinationally at head; bypass mux selected by count == 0).
              pymtl3/stdlib/queues/queues.py  {Normal,Pipe,Bypass}Queue{Ctrl,Dpath}RTL   (gated = true : rdy = ~reset & ...)
              pymtl3/stdlib/stream/queues.py  {Normal,Pipe,Bypass}Queue{Ctrl,Dpath}RTL   (gated = false)
              The two files have the same equations up to signal names (enq_en ~ recv_val, deq_en ~ send_rdy,
              deq_rdy ~ send_val) and the reset gating of the rdy outputs.
   e1_*     : queues.py        {Normal,Pipe,Bypass}Queue1EntryRTL  (en/rdy, `full` bit + `entry`)
   s1_*     : stream/queues.py {Normal,Pipe,Bypass}Queue1EntryRTL  (val/rdy, `full` bit + `entry`)
   p1_*     : enrdy_queues.py  {Normal,Pipe,Bypass}Queue1RTL       (recv en/rdy in, send en/rdy out; Reg/RegEn/RegRst)
   v1_*     : valrdy_queues.py {Normal,Pipe,Bypass}Queue1RTL       (val/rdy, `full` wire + RegEn buffer)
   vq_*     : valrdy_queues.py NormalQueueRTL{Ctrl,Dpath}          (enq_ptr / deq_ptr / full, num_free_entries)

   Registers are nat (the Bits widths clog2(n), clog2(n+1) are not modelled: the invariants head < n,
   count <= n proved in QueueProofs.v show no value ever leaves those widths). *)
From PV Require Import Base.Prelude Lib.Fifo.

Record rin (M : Type) : Type := mkIn {
  i_rst : bool;      (* s.reset *)
  i_enq : bool;      (* enq.en | recv.val | enq.val *)
  i_msg : M;         (* enq.msg | recv.msg *)
  i_deq : bool }.    (* deq.en (give ifc) | send.rdy | deq.rdy *)
Arguments mkIn {M}. Arguments i_rst {M}. Arguments i_enq {M}. Arguments i_msg {M}. Arguments i_deq {M}.

Definition offer_of {M} (i : rin M) : offer M := mkOffer (i_enq i) (i_msg i) (i_deq i).

Section QueueRTL.
  Context {M : Type}.

  (* ---------------------------------------------------------------- multi-entry Ctrl + Dpath *)
  Record cstate : Type := mkC { c_head : nat; c_tail : nat; c_count : nat; c_regs : nat -> M }.

  Definition c_init (d : M) : cstate := mkC 0 0 0 (fun _ => d).

  Definition upd (regs : nat -> M) (a : nat) (m : M) : nat -> M :=
    fun x => if (x =? a)%nat then m else regs x.

  (* s.head + 1 if s.head < s.last_idx else 0 *)
  Definition wrap_inc (n p : nat) : nat := if (p <? n - 1)%nat then (p + 1)%nat else 0%nat.

  Definition c_gate (gated : bool) (i : rin M) : bool := if gated then negb (i_rst i) else true.

  (* enq_rdy = ~reset & ( count < num_entries [ | deq_en   for the pipe   queue ] ) *)
  Definition c_enq_rdy (k : qkind) (n : nat) (gated : bool) (s : cstate) (i : rin M) : bool :=
    c_gate gated i && ((c_count s <? n)%nat || (is_pipe k && i_deq i)).
  (* deq_rdy = ~reset & ( count > 0           [ | enq_en   for the bypass queue ] ) *)
  Definition c_deq_rdy (k : qkind) (n : nat) (gated : bool) (s : cstate) (i : rin M) : bool :=
    c_gate gated i && ((0 <? c_count s)%nat || (is_bypass k && i_enq i)).
  Definition c_enq_xfer k n g s i : bool := i_enq i && c_enq_rdy k n g s i.
  Definition c_deq_xfer k n g s i : bool := i_deq i && c_deq_rdy k n g s i.
  (* deq.ret : register file read port at head; the bypass dpath muxes enq_msg in when count == 0 *)
  Definition c_ret (k : qkind) (s : cstate) (i : rin M) : M :=
    if is_bypass k && (c_count s =? 0)%nat then i_msg i else c_regs s (c_head s).

  Definition crtl_step (k : qkind) (n : nat) (gated : bool) (s : cstate) (i : rin M) : cstate * fout M :=
    let ex := c_enq_xfer k n gated s i in
    let dx := c_deq_xfer k n gated s i in
    let regs' := if ex then upd (c_regs s) (c_tail s) (i_msg i) else c_regs s in   (* RegisterFile: wen = enq_xfer, waddr = tail *)
    let s' :=
      if i_rst i then mkC 0 0 0 regs'
      else mkC (if dx then wrap_inc n (c_head s) else c_head s)
               (if ex then wrap_inc n (c_tail s) else c_tail s)
               (if ex && negb dx then (c_count s + 1)%nat
                else if negb ex && dx then (c_count s - 1)%nat else c_count s)
               regs' in
    (s', mkOut (c_enq_rdy k n gated s i) (c_deq_rdy k n gated s i) ex dx
               (if dx then Some (c_ret k s i) else None) (c_count s)).

  (* the abstraction  abs s = [ regs((head+i) mod n) | i < count ] *)
  Definition c_abs (n : nat) (s : cstate) : list M :=
    map (fun i => c_regs s ((c_head s + i) mod n)%nat) (seq 0 (c_count s)).

  (* ---------------------------------------------------------------- one-entry queues: full bit + entry *)
  Record ostate : Type := mkO { o_full : bool; o_entry : M }.
  Definition o_init (d : M) : ostate := mkO false d.
  Definition o_abs (s : ostate) : list M := if o_full s then [o_entry s] else [].
  Definition o_cnt (s : ostate) : nat := if o_full s then 1%nat else 0%nat.

  (* queues.py *Queue1EntryRTL — en/rdy; NOTE full/entry are updated from the raw en signals *)
  Definition e1_step (k : qkind) (s : ostate) (i : rin M) : ostate * fout M :=
    let full := o_full s in let rst := i_rst i in let en := i_enq i in let de := i_deq i in
    match k with
    | Normal =>
        let er := negb rst && negb full in let dr := negb rst && full in
        (mkO (negb rst && (negb de && (en || full))) (if en then i_msg i else o_entry s),
         mkOut er dr en de (if de then Some (o_entry s) else None) (o_cnt s))
    | Pipe =>
        let er := negb rst && (negb full || de) in let dr := full && negb rst in
        (mkO (negb rst && (en || (full && negb de))) (if en then i_msg i else o_entry s),
         mkOut er dr en de (if de then Some (o_entry s) else None) (o_cnt s))
    | Bypass =>
        let er := negb rst && negb full in let dr := negb rst && (full || en) in
        let ret := if full then o_entry s else i_msg i in             (* Mux sel = full *)
        (mkO (negb rst && (negb de && (en || full))) (if en && negb de then i_msg i else o_entry s),
         mkOut er dr en de (if de then Some ret else None) (o_cnt s))
    end.
  (* the en/rdy protocol: en may be raised only when rdy is *)
  Definition e1_legal (k : qkind) (s : ostate) (i : rin M) : Prop :=
    let f := snd (e1_step k s i) in (i_enq i = true -> f_enq_rdy f = true) /\ (i_deq i = true -> f_deq_rdy f = true).

  (* stream/queues.py *Queue1EntryRTL — val/rdy *)
  Definition s1_step (k : qkind) (s : ostate) (i : rin M) : ostate * fout M :=
    let full := o_full s in let rst := i_rst i in let val := i_enq i in let srdy := i_deq i in
    match k with
    | Normal =>
        let rrdy := negb full in let sval := full in
        (mkO (if rst then false else (val && negb full) || (full && negb srdy))
             (if val && negb full then i_msg i else o_entry s),
         mkOut rrdy sval (val && rrdy) (sval && srdy) (if sval && srdy then Some (o_entry s) else None) (o_cnt s))
    | Pipe =>
        let rrdy := srdy || negb full in let sval := full in
        (mkO (if rst then false else negb rrdy || val)
             (if rrdy && val then i_msg i else o_entry s),
         mkOut rrdy sval (val && rrdy) (sval && srdy) (if sval && srdy then Some (o_entry s) else None) (o_cnt s))
    | Bypass =>
        let rrdy := negb full in let sval := full || val in
        let out := if full then o_entry s else i_msg i in
        (mkO (if rst then false else negb srdy && (full || val))
             (if negb srdy && negb full && val then i_msg i else o_entry s),
         mkOut rrdy sval (val && rrdy) (sval && srdy) (if sval && srdy then Some out else None) (o_cnt s))
    end.

  (* enrdy_queues.py *Queue1RTL — enq : RecvIfcRTL (en in, rdy out), deq : SendIfcRTL (en OUT, rdy in).
     f_deq_rdy is the factor that multiplies deq.rdy in the deq.en equation; f_deq_fire is deq.en itself.
     Normal/Pipe keep `full` in a Reg WITHOUT reset; Bypass uses RegRst. *)
  Definition p1_step (k : qkind) (s : ostate) (i : rin M) : ostate * fout M :=
    let full := o_full s in let rst := i_rst i in let en := i_enq i in let drdy := i_deq i in
    match k with
    | Normal =>
        let er := negb full in let den := full && drdy in
        (mkO ((negb full && en) || (negb drdy && en) || (negb drdy && full)) (if en then i_msg i else o_entry s),
         mkOut er full en den (if den then Some (o_entry s) else None) (o_cnt s))
    | Pipe =>
        let er := negb full || drdy in let den := full && drdy in
        (mkO (en || (full && negb drdy)) (if en then i_msg i else o_entry s),
         mkOut er full en den (if den then Some (o_entry s) else None) (o_cnt s))
    | Bypass =>
        let er := negb full in let den := (en || full) && drdy in
        let out := if full then o_entry s else i_msg i in
        (mkO (if rst then false else (en || full) && negb den) (if en && negb den then i_msg i else o_entry s),
         mkOut er (en || full) en den (if den then Some out else None) (o_cnt s))
    end.
  Definition p1_legal (k : qkind) (s : ostate) (i : rin M) : Prop :=
    (i_enq i = true -> f_enq_rdy (snd (p1_step k s i)) = true) /\
    (i_rst i = true -> k = Bypass).     (* only the bypass variant has a reset *)

  (* valrdy_queues.py *Queue1RTL — val/rdy, no reset on `full` *)
  Definition v1_step (k : qkind) (s : ostate) (i : rin M) : ostate * fout M :=
    let full := o_full s in let val := i_enq i in let drdy := i_deq i in
    match k with
    | Normal =>
        let er := negb full in let ben := val && er in
        (mkO ((full && negb drdy) || ben) (if ben then i_msg i else o_entry s),
         mkOut er full (val && er) (full && drdy) (if full && drdy then Some (o_entry s) else None) (o_cnt s))
    | Pipe =>
        let er := negb full || drdy in let ben := val && er in
        (mkO (val || (full && negb drdy)) (if ben then i_msg i else o_entry s),
         mkOut er full (val && er) (full && drdy) (if full && drdy then Some (o_entry s) else None) (o_cnt s))
    | Bypass =>
        let er := negb full in let dval := full || val in
        let ben := negb drdy && (val && er) in
        let out := if full then o_entry s else i_msg i in
        (mkO (negb drdy && dval) (if ben then i_msg i else o_entry s),
         mkOut er dval (val && er) (dval && drdy) (if dval && drdy then Some out else None) (o_cnt s))
    end.
  Definition v1_legal (s : ostate) (i : rin M) : Prop := i_rst i = false.

  (* ---------------------------------------------------------------- valrdy_queues.py NormalQueueRTL{Ctrl,Dpath} *)
  Record vstate : Type := mkV { v_enq_ptr : nat; v_deq_ptr : nat; v_full : bool; v_regs : nat -> M }.
  Definition v_init (d : M) : vstate := mkV 0 0 false (fun _ => d).
  (* if ptr == last_idx: 0 else ptr + 1 *)
  Definition v_inc (n p : nat) : nat := if (p =? n - 1)%nat then 0%nat else (p + 1)%nat.
  Definition v_empty (s : vstate) : bool := negb (v_full s) && (v_enq_ptr s =? v_deq_ptr s)%nat.
  Definition v_num_free (n : nat) (s : vstate) (i : rin M) : nat :=
    if i_rst i then n
    else if v_full s then 0%nat
    else if v_empty s then n
    else if (v_deq_ptr s <? v_enq_ptr s)%nat then (n - (v_enq_ptr s - v_deq_ptr s))%nat
    else if (v_enq_ptr s <? v_deq_ptr s)%nat then (v_deq_ptr s - v_enq_ptr s)%nat
    else n.   (* unreachable: ~full & enq_ptr == deq_ptr is `empty` (the code leaves the signal unassigned here) *)
  Definition vq_step (n : nat) (s : vstate) (i : rin M) : vstate * fout M :=
    let er := negb (v_full s) in
    let dval := negb (v_empty s) in
    let do_enq := er && i_enq i in
    let do_deq := i_deq i && dval in
    let enq_next := if do_enq then v_inc n (v_enq_ptr s) else v_enq_ptr s in
    let deq_next := if do_deq then v_inc n (v_deq_ptr s) else v_deq_ptr s in
    let full_next_cycle := do_enq && negb do_deq && (enq_next =? v_deq_ptr s)%nat in
    let regs' := if do_enq then upd (v_regs s) (v_enq_ptr s) (i_msg i) else v_regs s in
    let s' :=
      if i_rst i then mkV 0 0 false regs'
      else mkV enq_next deq_next
               (if full_next_cycle then true else if do_deq && v_full s then false else v_full s) regs' in
    (s', mkOut er dval do_enq do_deq (if do_deq then Some (v_regs s (v_deq_ptr s)) else None)
               (n - v_num_free n s i)%nat).
  Definition v_count (n : nat) (s : vstate) : nat :=
    if v_full s then n
    else if (v_deq_ptr s <=? v_enq_ptr s)%nat then (v_enq_ptr s - v_deq_ptr s)%nat
    else (v_enq_ptr s + n - v_deq_ptr s)%nat.
  Definition v_abs (n : nat) (s : vstate) : list M :=
    map (fun j => v_regs s ((v_deq_ptr s + j) mod n)%nat) (seq 0 (v_count n s)).

  (* ---------------------------------------------------------------- running a machine over an input sequence *)
  Fixpoint run {S : Type} (step : S -> rin M -> S * fout M) (s : S) (is : list (rin M)) : S * list (option (fout M)) :=
    match is with
    | [] => (s, [])
    | i :: r => let '(s', out) := step s i in
                let '(sf, outs) := run step s' r in
                (sf, (if i_rst i then None else Some out) :: outs)
    end.
  Fixpoint legal_run {S : Type} (step : S -> rin M -> S * fout M) (legal : S -> rin M -> Prop)
           (s : S) (is : list (rin M)) : Prop :=
    match is with
    | [] => True
    | i :: r => legal s i /\ legal_run step legal (fst (step s i)) r
    end.
  Definition offers_of (is : list (rin M)) : list (bool * offer M) := map (fun i => (i_rst i, offer_of i)) is.
End QueueRTL.

Arguments cstate M : clear implicits.
Arguments ostate M : clear implicits.
Arguments vstate M : clear implicits.

(* ------------------------------------------------------------------------------------------------
   Executable comparison of an observed history with the concrete models, INCLUDING the internal registers
   read out of the simulated component before each clock edge.  co_ein / co_din are the raw signals that
   were applied to the ports (for en/rdy interfaces these are the en signals, i.e. offer && rdy).
     multi-entry : co_a = head (deq_ptr), co_b = tail (enq_ptr), co_c = count (vq: full bit), co_regs = register file
     one-entry   : co_c = full bit, co_regs = [entry] *)
Record cobs : Type := mkCObs { co : obs; co_ein : bool; co_din : bool; co_a : Z; co_b : Z; co_c : Z; co_regs : list Z }.

Definition rin_of (c : cobs) : rin Z := mkIn (b_rst (co c)) (co_ein c) (b_msg (co c)) (co_din c).

Definition regs_agree (n : nat) (regs : nat -> Z) (l : list Z) : bool :=
  (length l =? n)%nat && forallb (fun j => nth j l 0 =? regs j) (seq 0 n).

Definition out_ok (c : cobs) (f : fout Z) : bool := b_rst (co c) || obs_matches (co c) f.

Fixpoint crtl_first_bad (k : qkind) (n : nat) (gated : bool) (s : cstate Z) (i : nat) (h : list cobs) : option nat :=
  match h with
  | [] => None
  | c :: r =>
      let '(s', f) := crtl_step k n gated s (rin_of c) in
      if (co_a c =? Z.of_nat (c_head s)) && (co_b c =? Z.of_nat (c_tail s)) && (co_c c =? Z.of_nat (c_count s))
         && regs_agree n (c_regs s) (co_regs c) && out_ok c f
      then crtl_first_bad k n gated s' (S i) r else Some i
  end.

Fixpoint vq_first_bad (n : nat) (s : vstate Z) (i : nat) (h : list cobs) : option nat :=
  match h with
  | [] => None
  | c :: r =>
      let '(s', f) := vq_step n s (rin_of c) in
      if (co_a c =? Z.of_nat (v_deq_ptr s)) && (co_b c =? Z.of_nat (v_enq_ptr s)) && (co_c c =? b2z (v_full s))
         && regs_agree n (v_regs s) (co_regs c) && out_ok c f
      then vq_first_bad n s' (S i) r else Some i
  end.

Fixpoint o1_first_bad (step : ostate Z -> rin Z -> ostate Z * fout Z) (s : ostate Z) (i : nat) (h : list cobs) : option nat :=
  match h with
  | [] => None
  | c :: r =>
      let '(s', f) := step s (rin_of c) in
      if (co_c c =? b2z (o_full s)) && (nth 0 (co_regs c) 0 =? o_entry s) && out_ok c f
      then o1_first_bad step s' (S i) r else Some i
  end.

Definition none_nat (x : option nat) : bool := match x with None => true | Some _ => false end.
