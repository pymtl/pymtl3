(* Lib/ArbiterGenProofs.v — T-gen tie of C19: the designs in Gen/ArbiterGen.v (the REAL RoundRobinArbiter /
   RoundRobinArbiterEn of /repo at nreqs 2, 3, 4, translated block by block from their source on every run) compute,
   in one simulated cycle of the generic design evaluator RTL/Design.v, exactly the grants and the next priority
   register of the hand-written model Lib.Arbiter.step — the model every theorem of Props/C19.v is about.

   Each instance theorem is a finite fact (bound in its name: nreqs = 2, 3 or 4) about EVERY priority-register content
   (all 2^n values, one-hot or not), every request vector, both values of en and of reset, and two fillings of all the
   other signals (all wires 0 / all wires 1 before the cycle).  The statement to read is arb_cycle_spec.  It is proved by
   evaluating a boolean sweep (arb_all, wires 0) that runs one combinational pass and the clock edge per case; arb_all_sound
   supplies the second pass of the tick (RTL/DesignProofs.v, tick_from_halves) from the determinism certificate arb_det_ok
   and from the fact that no combinational block writes the priority register (comb_keeps) — both evaluated once per design.
   The *_any theorems: by the same certificate the declared bits of grants and of the next register are the same for ANY
   content of the wires before the cycle (arb_cycle_spec_any) — which is what an induction over request histories needs.
   The all-ones filling is not swept: arb_fill derives it from the all-zero one (determinism for the declared bits, the
   frame property sim_tick_obs_frame for the bits above them).  No axioms. *)
From PV Require Import Base.Prelude Bits.BitsSpec Bits.BitsLemmas RTL.Syntax RTL.Eval Sched.Accept RTL.Footprint RTL.FootprintSound RTL.Design RTL.DesignProofs Lib.Arbiter Gen.ArbiterGen.
Open Scope Z_scope.

Definition zrange (k : nat) : list Z := map Z.of_nat (seq 0 k).
Lemma zrange_in k z : 0 <= z < Z.of_nat k -> In z (zrange k).
Proof.
  intros H. unfold zrange. apply in_map_iff. exists (Z.to_nat z). split; [lia|]. apply in_seq. lia.
Qed.

Record arb_ports : Set := mkPorts { p_reset : nat; p_reqs : nat; p_grants : nat; p_prio : nat; p_en : option nat }.

(* the environment before the cycle: the other signals all zero (fill = false) or all ones (fill = true) *)
Definition arb_env (D : rdesign) (P : arb_ports) (fill : bool) (vp vq : Z) (ve vr : bool) : senv :=
  let e0 := map (fun t => if fill then 2 ^ swidth t - 1 else 0) (rd_shapes D) in
  let e1 := set_nth (p_reset P) (b2z vr) (set_nth (p_reqs P) vq (set_nth (p_prio P) vp e0)) in
  match p_en P with Some k => set_nth k (b2z ve) e1 | None => e1 end.

(* one simulated cycle is one step of the model *)
Definition arb_cycle_spec (D : rdesign) (P : arb_ports) (n : nat) (isEn : bool) : Prop :=
  forall (fill : bool) (vp vq : Z) (ve vr : bool), 0 <= vp < 2 ^ Z.of_nat n -> 0 <= vq < 2 ^ Z.of_nat n ->
  exists e1 e3,
    sim_tick_obs D (arb_env D P fill vp vq ve vr) = Ok (e1, e3) /\
    (* grants seen after sim_eval_combinational *)
    nth (p_grants P) e1 0 = Z_of_list (fst (Arbiter.step n isEn (to_list n (bv_of_Z vp)) (vr, ve, bv_of_Z vq))) /\
    (* priority register after sim_tick *)
    nth (p_prio P) e3 0 = Z_of_list (snd (Arbiter.step n isEn (to_list n (bv_of_Z vp)) (vr, ve, bv_of_Z vq))).

(* arb_cycle_spec is [forall fill, arb_cycle_at .. fill] *)
Definition arb_cycle_at (D : rdesign) (P : arb_ports) (n : nat) (isEn : bool) (fill : bool) : Prop :=
  forall (vp vq : Z) (ve vr : bool), 0 <= vp < 2 ^ Z.of_nat n -> 0 <= vq < 2 ^ Z.of_nat n ->
  exists e1 e3,
    sim_tick_obs D (arb_env D P fill vp vq ve vr) = Ok (e1, e3) /\
    nth (p_grants P) e1 0 = Z_of_list (fst (Arbiter.step n isEn (to_list n (bv_of_Z vp)) (vr, ve, bv_of_Z vq))) /\
    nth (p_prio P) e3 0 = Z_of_list (snd (Arbiter.step n isEn (to_list n (bv_of_Z vp)) (vr, ve, bv_of_Z vq))).

Lemma arb_env_length D P fill vp vq ve vr : length (arb_env D P fill vp vq ve vr) = rd_nsig D.
Proof. unfold arb_env. destruct (p_en P); rewrite !set_nth_length; apply map_length. Qed.

(* ---- the determinism certificate: det_tick (RTL/Design.v, sound by RTL/DesignProofs.v) certifies that what is observed is
   a function of the ports and the priority register only ---- *)
Definition arb_ids (P : arb_ports) : list nat :=
  p_reset P :: p_reqs P :: p_prio P :: match p_en P with Some k => [k] | None => [] end.
Definition arb_Q0 (P : arb_ports) (n : nat) : fp :=
  [(p_reset P, 0, 1); (p_reqs P, 0, Z.of_nat n); (p_prio P, 0, Z.of_nat n)] ++
  match p_en P with Some k => [(k, 0, 1)] | None => [] end.
Definition arb_det_ok (D : rdesign) (P : arb_ports) (n : nat) : bool :=
  wf_shapes (rd_shapes D) && nodup_b (arb_ids P) && forallb (fun k => Nat.ltb k (rd_nsig D)) (arb_ids P) &&
  match det_tick D (arb_Q0 P n) with
  | Some (Q1, Q2) => covers Q1 [(p_grants P, 0, Z.of_nat n)] && covers Q2 [(p_prio P, 0, Z.of_nat n)]
  | None => false
  end.

(* the strong form: e is ANY environment of the right length that carries the inputs and the register *)
Definition arb_cycle_spec_any (D : rdesign) (P : arb_ports) (n : nat) (isEn : bool) : Prop :=
  forall (e : senv) (vp vq : Z) (ve vr : bool), 0 <= vp < 2 ^ Z.of_nat n -> 0 <= vq < 2 ^ Z.of_nat n ->
  length e = rd_nsig D ->
  nth (p_reset P) e 0 = b2z vr -> nth (p_reqs P) e 0 = vq -> nth (p_prio P) e 0 = vp ->
  match p_en P with Some k => nth k e 0 = b2z ve | None => True end ->
  exists e1 e3,
    sim_tick_obs D e = Ok (e1, e3) /\
    (forall j, 0 <= j < Z.of_nat n ->
       Z.testbit (nth (p_grants P) e1 0) j = Z.testbit (Z_of_list (fst (Arbiter.step n isEn (to_list n (bv_of_Z vp)) (vr, ve, bv_of_Z vq)))) j) /\
    (forall j, 0 <= j < Z.of_nat n ->
       Z.testbit (nth (p_prio P) e3 0) j = Z.testbit (Z_of_list (snd (Arbiter.step n isEn (to_list n (bv_of_Z vp)) (vr, ve, bv_of_Z vq)))) j).

(* the ports with the values arb_env gives them, in the order in which arb_env sets them (outermost first: en) *)
Definition arb_vals (P : arb_ports) (vp vq : Z) (ve vr : bool) : list (nat * Z) :=
  match p_en P with Some k => [(k, b2z ve)] | None => [] end ++ [(p_reset P, b2z vr); (p_reqs P, vq); (p_prio P, vp)].

Lemma arb_env_set_all D P fill vp vq ve vr :
  arb_env D P fill vp vq ve vr =
  set_all (arb_vals P vp vq ve vr) (map (fun t => if fill then 2 ^ swidth t - 1 else 0) (rd_shapes D)).
Proof. unfold arb_env, arb_vals. destruct (p_en P); reflexivity. Qed.

Lemma arb_vals_keys P vp vq ve vr : Permutation.Permutation (map fst (arb_vals P vp vq ve vr)) (arb_ids P).
Proof.
  unfold arb_vals, arb_ids. destruct (p_en P) as [k|]; cbn [app map fst]; [|reflexivity].
  exact (Permutation.Permutation_cons_append [p_reset P; p_reqs P; p_prio P] k).
Qed.

Lemma arb_env_at D P fill vp vq ve vr s v :
  nodup_b (arb_ids P) = true -> forallb (fun k => Nat.ltb k (rd_nsig D)) (arb_ids P) = true ->
  In (s, v) (arb_vals P vp vq ve vr) -> nth s (arb_env D P fill vp vq ve vr) 0 = v.
Proof.
  intros Hnd Hlt Hin. apply nodup_b_spec in Hnd. rewrite forallb_forall in Hlt. rewrite arb_env_set_all.
  pose proof (arb_vals_keys P vp vq ve vr) as K. apply nth_set_all; [|intros x Hx|exact Hin].
  - exact (Permutation.Permutation_NoDup (Permutation.Permutation_sym K) Hnd).
  - rewrite map_length. apply Nat.ltb_lt, Hlt. exact (Permutation.Permutation_in x K Hx).
Qed.

(* an environment that carries the inputs and the register agrees with the all-zero-wires environment of the sweep on
   every bit the tick depends on *)
Lemma arb_env_agree D P n e vp vq ve vr :
  nodup_b (arb_ids P) = true -> forallb (fun k => Nat.ltb k (rd_nsig D)) (arb_ids P) = true -> length e = rd_nsig D ->
  nth (p_reset P) e 0 = b2z vr -> nth (p_reqs P) e 0 = vq -> nth (p_prio P) e 0 = vp ->
  match p_en P with Some k => nth k e 0 = b2z ve | None => True end ->
  eagree (mem_fp (arb_Q0 P n)) e (arb_env D P false vp vq ve vr).
Proof.
  intros Hnd Hlt Le Er Eq Ep Ee. split; [rewrite Le, arb_env_length; reflexivity|]. intros s j Hm.
  (* a bit of arb_Q0 belongs to one of the ports, where both environments hold the value arb_vals names *)
  assert (K : exists v, nth s e 0 = v /\ In (s, v) (arb_vals P vp vq ve vr)).
  { unfold arb_Q0 in Hm. rewrite mem_fp_app in Hm. unfold arb_vals. apply orb_prop in Hm as [Hm|Hm].
    - unfold mem_fp in Hm. cbn [existsb] in Hm. rewrite orb_false_r in Hm.
      repeat (apply orb_prop in Hm as [Hm|Hm]); apply in_ivl_spec in Hm as [Hs _]; cbn [fst iroot] in Hs; subst s;
        eexists; (split; [eassumption|]); apply in_or_app; right; cbn [In]; auto.
    - destruct (p_en P) as [k|]; [|discriminate]. unfold mem_fp in Hm. cbn [existsb] in Hm. rewrite orb_false_r in Hm.
      apply in_ivl_spec in Hm as [Hs _]. cbn [fst iroot] in Hs. subst s. exists (b2z ve). split; [exact Ee|left; reflexivity]. }
  destruct K as (v & -> & Hin). rewrite (arb_env_at D P false vp vq ve vr s _ Hnd Hlt Hin). reflexivity.
Qed.

Lemma arb_det_ok_inv D P n : arb_det_ok D P n = true ->
  wf_shapes (rd_shapes D) = true /\ nodup_b (arb_ids P) = true /\ forallb (fun k => Nat.ltb k (rd_nsig D)) (arb_ids P) = true /\
  exists Q1 Q2, det_tick D (arb_Q0 P n) = Some (Q1, Q2) /\
    covers Q1 [(p_grants P, 0, Z.of_nat n)] = true /\ covers Q2 [(p_prio P, 0, Z.of_nat n)] = true.
Proof.
  unfold arb_det_ok. intros H. apply andb_prop in H as [H Hd]. apply andb_prop in H as [H Hlt]. apply andb_prop in H as [Ws Hnd].
  destruct (det_tick D (arb_Q0 P n)) as [[Q1 Q2]|]; [|discriminate]. apply andb_prop in Hd as [C1 C2]. eauto 10.
Qed.

(* ---- the sweep ----
   One combinational pass and the clock edge per case (on strip D); the second pass of the tick is supplied by
   tick_from_halves: after the edge the environment carries the same inputs and the model's next priority register, so its
   pass is the first pass of the case with that register — which the sweep also runs. *)
Definition arb_case (D : rdesign) (G : decls) (P : arb_ports) (n : nat) (isEn : bool) (fill : bool) (vp vq : Z) (ve vr : bool) : bool :=
  let r := Arbiter.step n isEn (to_list n (bv_of_Z vp)) (vr, ve, bv_of_Z vq) in
  match eval_comb_with G D (arb_env D P fill vp vq ve vr) with
  | Ok e1 =>
      match clock_edge_with G D e1 with
      | Ok e2 =>
          (nth (p_grants P) e1 0 =? Z_of_list (fst r)) && (nth (p_prio P) e2 0 =? Z_of_list (snd r)) &&
          (nth (p_reset P) e2 0 =? b2z vr) && (nth (p_reqs P) e2 0 =? vq) &&
          match p_en P with Some k => nth k e2 0 =? b2z ve | None => true end &&
          (* the next register lies in the swept range, so that its case exists *)
          (0 <=? Z_of_list (snd r)) && (Z_of_list (snd r) <? Z.of_nat (2 ^ n))
      | Err _ => false
      end
  | Err _ => false
  end.

Definition arb_all (D : rdesign) (P : arb_ports) (n : nat) (isEn : bool) : bool :=
  let G := rd_decls D in
  (* a design without an en port has nothing to enumerate there: its environment and the model (isEn = false) ignore en *)
  let ens := match p_en P with Some _ => [false; true] | None => [true] end in
  match p_en P with Some _ => true | None => negb isEn end &&
  forallb (fun vp => forallb (fun vq => forallb (fun ve => forallb (fun vr =>
    arb_case D G P n isEn false vp vq ve vr) [false; true]) ens) (zrange (2 ^ n))) (zrange (2 ^ n)).

Lemma arb_all_case D P n isEn : arb_all (strip D) P n isEn = true ->
  forall vp vq ve vr, 0 <= vp < Z.of_nat (2 ^ n) -> 0 <= vq < Z.of_nat (2 ^ n) ->
  arb_case D (rd_decls D) P n isEn false vp vq ve vr = true.
Proof.
  unfold arb_all. cbv zeta. intros H vp vq ve vr Hp Hq. apply andb_prop in H as [En H].
  assert (C : arb_case (strip D) (rd_decls (strip D)) P n isEn false vp vq (match p_en P with Some _ => ve | None => true end) vr = true).
  { rewrite forallb_forall in H. specialize (H vp (zrange_in _ _ Hp)).
    rewrite forallb_forall in H. specialize (H vq (zrange_in _ _ Hq)).
    rewrite forallb_forall in H. destruct (p_en P); [specialize (H ve (bools_in ve))|specialize (H true (or_introl eq_refl))];
      rewrite forallb_forall in H; exact (H vr (bools_in vr)). }
  assert (E : arb_case (strip D) (rd_decls (strip D)) P n isEn false vp vq ve vr = true).
  { destruct (p_en P) eqn:Pe; [exact C|]. destruct isEn; [discriminate|].
    (* neither arb_env without an en port nor step n false looks at ve: both sides reduce to the same term *)
    unfold arb_case, arb_env in *. rewrite Pe in *. exact C. }
  clear C H. unfold arb_case in *. change (arb_env (strip D)) with (arb_env D) in E.
  rewrite eval_comb_with_decls, sim_eval_comb_strip in E by apply arb_env_length. exact E.
Qed.

Lemma arb_all_sound D P n isEn : arb_det_ok D P n = true -> comb_keeps D [p_prio P] = true ->
  arb_all (strip D) P n isEn = true -> arb_cycle_at D P n isEn false.
Proof.
  intros Hd K H vp vq ve vr Hp Hq.
  apply arb_det_ok_inv in Hd as (Ws & Hnd & Hlt & Q1 & Q2 & Dt & _).
  assert (E : 2 ^ Z.of_nat n = Z.of_nat (2 ^ n)) by (rewrite Nat2Z.inj_pow; reflexivity). rewrite E in Hp, Hq.
  pose proof (arb_all_case D P n isEn H) as C.
  pose proof (C vp vq ve vr Hp Hq) as C1. unfold arb_case in C1. rewrite eval_comb_with_decls, clock_edge_with_decls in C1.
  set (r := Arbiter.step n isEn (to_list n (bv_of_Z vp)) (vr, ve, bv_of_Z vq)) in *.
  destruct (sim_eval_comb D (arb_env D P false vp vq ve vr)) as [e1|] eqn:E1; [|discriminate].
  destruct (clock_edge D e1) as [e2|] eqn:E2; [|discriminate].
  repeat (apply andb_prop in C1 as [C1 ?]).   (* conjunct by conjunct; lia reads (x =? y) = true as x = y *)
  (* the case whose first pass is this tick's second pass *)
  pose proof (C (Z_of_list (snd r)) vq ve vr ltac:(lia) Hq) as C2. unfold arb_case in C2. rewrite eval_comb_with_decls in C2.
  destruct (sim_eval_comb D (arb_env D P false (Z_of_list (snd r)) vq ve vr)) as [e1'|] eqn:E1'; [|discriminate].
  assert (L2 : length e2 = rd_nsig D)
    by (rewrite (clock_edge_length _ _ _ E2); exact (sim_eval_comb_length _ _ _ (arb_env_length _ _ _ _ _ _ _) E1)).
  assert (A : eagree (mem_fp (arb_Q0 P n)) e2 (arb_env D P false (Z_of_list (snd r)) vq ve vr)).
  { apply arb_env_agree; try assumption; try lia. destruct (p_en P); [lia|exact I]. }
  destruct (tick_from_halves D _ Q1 [p_prio P] _ e1 e2 _ e1' Ws (det_tick_pass _ _ _ _ Dt) K (arb_env_length _ _ _ _ _ _ _) E1 E2 A E1')
    as (e3 & T & Keep).
  exists e1, e3. split; [exact T|]. split; [lia|]. rewrite (Keep _ (or_introl eq_refl)). lia.
Qed.

(* ---- the other wires all ones ----
   arb_cycle_spec also speaks of the environment whose other wires hold all ones.  That half is not swept: the declared
   bits of grants and of the register are those of the all-zero run (determinism), and the bits above the declared width
   are, in both runs, what they were before the cycle — zero — because no block writes them (sim_tick_obs_frame). *)
Definition arb_widths_ok (D : rdesign) (P : arb_ports) (n : nat) : bool :=
  (swidth (nth (p_grants P) (rd_shapes D) (ShBits 0)) =? Z.of_nat n) && negb (existsb (Nat.eqb (p_grants P)) (arb_ids P)) &&
  writes_below D (p_grants P) (Z.of_nat n) && writes_below D (p_prio P) (Z.of_nat n).

Lemma arb_env_other D P fill vp vq ve vr s : ~ In s (arb_ids P) ->
  nth s (arb_env D P fill vp vq ve vr) 0 = if fill then 2 ^ swidth (nth s (rd_shapes D) (ShBits 0)) - 1 else 0.
Proof.
  intros H. rewrite arb_env_set_all, nth_set_all_other.
  - destruct fill; exact (map_nth _ (rd_shapes D) (ShBits 0) s).
  - intros Hs. apply H. exact (Permutation.Permutation_in s (arb_vals_keys P vp vq ve vr) Hs).
Qed.

Lemma arb_fill D P n isEn : arb_det_ok D P n = true -> arb_widths_ok D P n = true ->
  arb_cycle_at D P n isEn false -> arb_cycle_spec D P n isEn.
Proof.
  intros Hd Hw H0 [|]; [|exact H0]. intros vp vq ve vr Hp Hq.
  destruct (H0 vp vq ve vr Hp Hq) as (c1 & c3 & Hc & Hg & Hpr).
  apply arb_det_ok_inv in Hd as (Ws & Hnd & Hlt & Q1 & Q2 & Dt & C1 & C2).
  unfold arb_widths_ok in Hw. repeat (apply andb_prop in Hw as [Hw ?]). apply Z.eqb_eq in Hw.
  assert (Ng : ~ In (p_grants P) (arb_ids P)).
  { intros Hin. match goal with H : negb _ = true |- _ => apply negb_true_iff in H; rewrite (proj2 (existsb_exists _ _)) in H; [discriminate|] end.
    exists (p_grants P). split; [exact Hin|apply Nat.eqb_refl]. }
  assert (In3 : forall x, In x [(p_reset P, b2z vr); (p_reqs P, vq); (p_prio P, vp)] -> In x (arb_vals P vp vq ve vr))
    by (intros x Hx; apply in_or_app; right; exact Hx).
  assert (A : eagree (mem_fp (arb_Q0 P n)) (arb_env D P true vp vq ve vr) (arb_env D P false vp vq ve vr)).
  { apply arb_env_agree; try assumption; try apply arb_env_length; try (apply arb_env_at; try assumption; apply In3; cbn [In]; auto).
    unfold arb_vals in *. destruct (p_en P) as [k|] eqn:Pe; [|exact I].
    apply arb_env_at; try assumption. unfold arb_vals. rewrite Pe. left. reflexivity. }
  pose proof (sim_tick_obs_det D _ Q1 Q2 _ _ Ws Dt A) as O. rewrite Hc in O.
  destruct (sim_tick_obs D (arb_env D P true vp vq ve vr)) as [[e1 e3]|] eqn:T; [|destruct O]. destruct O as [[_ O1] [_ O3]].
  exists e1, e3. split; [reflexivity|].
  (* bits at and above n of a signal whose writes stay below n *)
  assert (F : forall fill a1 a3 s, sim_tick_obs D (arb_env D P fill vp vq ve vr) = Ok (a1, a3) -> writes_below D s (Z.of_nat n) = true ->
              forall j, Z.of_nat n <= j -> Z.testbit (nth s a1 0) j = Z.testbit (nth s (arb_env D P fill vp vq ve vr) 0) j /\
                                            Z.testbit (nth s a3 0) j = Z.testbit (nth s (arb_env D P fill vp vq ve vr) 0) j).
  { intros fill a1 a3 s Ht Hb j Hj. apply (sim_tick_obs_frame D _ a1 a3 s j Ws (arb_env_length _ _ _ _ _ _ _)); [|exact Ht].
    intros b Hin. exact (writes_below_wr D s _ b j Hb Hj Hin). }
  split; [rewrite <- Hg|rewrite <- Hpr]; apply Z.bits_inj'; intros j Hj0; destruct (Z.ltb_spec j (Z.of_nat n)) as [Lo|Hi].
  - apply O1. apply (covers_sound _ _ C1). rewrite mem_single, Nat.eqb_refl. cbn [andb]. lia.
  - rewrite (proj1 (F true e1 e3 (p_grants P) T ltac:(assumption) j Hi)), (proj1 (F false c1 c3 (p_grants P) Hc ltac:(assumption) j Hi)).
    rewrite !arb_env_other by exact Ng. rewrite Hw, ones_eq, Z.ones_spec_high, Z.bits_0 by lia. reflexivity.
  - apply O3. apply (covers_sound _ _ C2). rewrite mem_single, Nat.eqb_refl. cbn [andb]. lia.
  - rewrite (proj2 (F true e1 e3 (p_prio P) T ltac:(assumption) j Hi)), (proj2 (F false c1 c3 (p_prio P) Hc ltac:(assumption) j Hi)).
    rewrite !(arb_env_at D P _ vp vq ve vr (p_prio P) vp Hnd Hlt) by (apply In3; cbn [In]; auto). reflexivity.
Qed.

Lemma arb_any D P n isEn : arb_det_ok D P n = true -> arb_cycle_spec D P n isEn -> arb_cycle_spec_any D P n isEn.
Proof.
  intros Hd Hs e vp vq ve vr Hp Hq Le Er Eq Ep Ee.
  apply arb_det_ok_inv in Hd as (Ws & Hnd & Hlt & Q1 & Q2 & Dt & C1 & C2).
  destruct (Hs false vp vq ve vr Hp Hq) as (c1 & c3 & Hc & Hg & Hpr).
  pose proof (sim_tick_obs_det D _ Q1 Q2 e _ Ws Dt (arb_env_agree D P n e vp vq ve vr Hnd Hlt Le Er Eq Ep Ee)) as O. rewrite Hc in O.
  destruct (sim_tick_obs D e) as [[e1 e3]|x]; [|destruct O]. destruct O as [[_ O1] [_ O3]].
  exists e1, e3. split; [reflexivity|]. split; intros j Hj.
  - rewrite <- Hg. apply O1. apply (covers_sound _ _ C1). rewrite mem_single, Nat.eqb_refl. cbn [andb]. lia.
  - rewrite <- Hpr. apply O3. apply (covers_sound _ _ C2). rewrite mem_single, Nat.eqb_refl. cbn [andb]. lia.
Qed.

Definition P_rr2 := mkPorts rr2_reset rr2_reqs rr2_grants rr2_prio rr2_en.
Definition P_rr3 := mkPorts rr3_reset rr3_reqs rr3_grants rr3_prio rr3_en.
Definition P_rr4 := mkPorts rr4_reset rr4_reqs rr4_grants rr4_prio rr4_en.
Definition P_rren2 := mkPorts rren2_reset rren2_reqs rren2_grants rren2_prio rren2_en.
Definition P_rren3 := mkPorts rren3_reset rren3_reqs rren3_grants rren3_prio rren3_en.
Definition P_rren4 := mkPorts rren4_reset rren4_reqs rren4_grants rren4_prio rren4_en.

(* the generated terms are legal designs and the order pymtl3 scheduled is accepted by the certified acceptor on the
   PROVED footprints (so, by C01_rtl_accepted_schedules_agree, every other accepted order computes the same) *)
Lemma gen_arbiters_ok : forallb rd_ok [rr2; rr3; rr4; rren2; rren3; rren4] = true.
Proof. vm_compute. reflexivity. Qed.
(* the variant without en really has no en port, the other one has *)
Lemma gen_arbiters_en_ports : (rr2_en, rr3_en, rr4_en) = (None, None, None) /\ rren2_en <> None /\ rren3_en <> None /\ rren4_en <> None.
Proof. repeat split; discriminate. Qed.

(* evaluated once, as one conjunction; gen_arbiters_det_each hands out the conjuncts *)
Lemma gen_arbiters_det : arb_det_ok rr2 P_rr2 2 && arb_det_ok rr3 P_rr3 3 && arb_det_ok rr4 P_rr4 4 &&
                         arb_det_ok rren2 P_rren2 2 && arb_det_ok rren3 P_rren3 3 && arb_det_ok rren4 P_rren4 4 = true.
Proof. vm_compute. reflexivity. Qed.

Lemma gen_arbiters_det_each :
  arb_det_ok rr2 P_rr2 2 = true /\ arb_det_ok rr3 P_rr3 3 = true /\ arb_det_ok rr4 P_rr4 4 = true /\
  arb_det_ok rren2 P_rren2 2 = true /\ arb_det_ok rren3 P_rren3 3 = true /\ arb_det_ok rren4 P_rren4 4 = true.
Proof. pose proof gen_arbiters_det as H. repeat (apply andb_prop in H as [H ?]). tauto. Qed.

(* no combinational block writes the priority register *)
Lemma gen_arbiters_keep :
  comb_keeps rr2 [p_prio P_rr2] = true /\ comb_keeps rr3 [p_prio P_rr3] = true /\ comb_keeps rr4 [p_prio P_rr4] = true /\
  comb_keeps rren2 [p_prio P_rren2] = true /\ comb_keeps rren3 [p_prio P_rren3] = true /\ comb_keeps rren4 [p_prio P_rren4] = true.
Proof. vm_compute. tauto. Qed.

(* grants is as wide as declared and is no input; no block writes grants or the register above that width *)
Lemma gen_arbiters_widths :
  arb_widths_ok rr2 P_rr2 2 = true /\ arb_widths_ok rr3 P_rr3 3 = true /\ arb_widths_ok rr4 P_rr4 4 = true /\
  arb_widths_ok rren2 P_rren2 2 = true /\ arb_widths_ok rren3 P_rren3 3 = true /\ arb_widths_ok rren4 P_rren4 4 = true.
Proof. vm_compute. tauto. Qed.

(* vm_cast_no_check: the sweep is evaluated once, by the VM when Qed checks the term, not a second time by the tactic *)
Theorem rr_gen_eq_model_nreqs2 : arb_cycle_spec rr2 P_rr2 2 false.
Proof.
  apply arb_fill; [apply gen_arbiters_det_each|apply gen_arbiters_widths|].
  apply arb_all_sound; [apply gen_arbiters_det_each|apply gen_arbiters_keep|vm_cast_no_check (eq_refl true)].
Qed.
Theorem rr_gen_eq_model_nreqs3 : arb_cycle_spec rr3 P_rr3 3 false.
Proof.
  apply arb_fill; [apply gen_arbiters_det_each|apply gen_arbiters_widths|].
  apply arb_all_sound; [apply gen_arbiters_det_each|apply gen_arbiters_keep|vm_cast_no_check (eq_refl true)].
Qed.
Theorem rr_gen_eq_model_nreqs4 : arb_cycle_spec rr4 P_rr4 4 false.
Proof.
  apply arb_fill; [apply gen_arbiters_det_each|apply gen_arbiters_widths|].
  apply arb_all_sound; [apply gen_arbiters_det_each|apply gen_arbiters_keep|vm_cast_no_check (eq_refl true)].
Qed.
Theorem rren_gen_eq_model_nreqs2 : arb_cycle_spec rren2 P_rren2 2 true.
Proof.
  apply arb_fill; [apply gen_arbiters_det_each|apply gen_arbiters_widths|].
  apply arb_all_sound; [apply gen_arbiters_det_each|apply gen_arbiters_keep|vm_cast_no_check (eq_refl true)].
Qed.
Theorem rren_gen_eq_model_nreqs3 : arb_cycle_spec rren3 P_rren3 3 true.
Proof.
  apply arb_fill; [apply gen_arbiters_det_each|apply gen_arbiters_widths|].
  apply arb_all_sound; [apply gen_arbiters_det_each|apply gen_arbiters_keep|vm_cast_no_check (eq_refl true)].
Qed.
Theorem rren_gen_eq_model_nreqs4 : arb_cycle_spec rren4 P_rren4 4 true.
Proof.
  apply arb_fill; [apply gen_arbiters_det_each|apply gen_arbiters_widths|].
  apply arb_all_sound; [apply gen_arbiters_det_each|apply gen_arbiters_keep|vm_cast_no_check (eq_refl true)].
Qed.

Theorem rr_gen_eq_model_any_nreqs2 : arb_cycle_spec_any rr2 P_rr2 2 false.
Proof. apply arb_any; [apply gen_arbiters_det_each|exact rr_gen_eq_model_nreqs2]. Qed.
Theorem rr_gen_eq_model_any_nreqs3 : arb_cycle_spec_any rr3 P_rr3 3 false.
Proof. apply arb_any; [apply gen_arbiters_det_each|exact rr_gen_eq_model_nreqs3]. Qed.
Theorem rr_gen_eq_model_any_nreqs4 : arb_cycle_spec_any rr4 P_rr4 4 false.
Proof. apply arb_any; [apply gen_arbiters_det_each|exact rr_gen_eq_model_nreqs4]. Qed.
Theorem rren_gen_eq_model_any_nreqs2 : arb_cycle_spec_any rren2 P_rren2 2 true.
Proof. apply arb_any; [apply gen_arbiters_det_each|exact rren_gen_eq_model_nreqs2]. Qed.
Theorem rren_gen_eq_model_any_nreqs3 : arb_cycle_spec_any rren3 P_rren3 3 true.
Proof. apply arb_any; [apply gen_arbiters_det_each|exact rren_gen_eq_model_nreqs3]. Qed.
Theorem rren_gen_eq_model_any_nreqs4 : arb_cycle_spec_any rren4 P_rren4 4 true.
Proof. apply arb_any; [apply gen_arbiters_det_each|exact rren_gen_eq_model_nreqs4]. Qed.
