(* Lib/CksumProofs.v — the FL function and the RTL StepUnit chain of the checksum unit compute the same
   Fletcher-mod-65536 checksum, for ALL word lists (in particular all 8-tuples of 16-bit words).
   General modular arithmetic; nothing is enumerated. *)
From PV Require Import Base.Prelude Bits.BitsLemmas Lib.Cksum.
Open Scope Z_scope.

Lemma M32_pow : M32 = 2 ^ 32. Proof. reflexivity. Qed.

Lemma land_ffff x : Z.land x 65535 = x mod M16.
Proof. change 65535 with (2 ^ 16 - 1). rewrite land_mask by lia. reflexivity. Qed.

Lemma mod32_mod16 x : (x mod M32) mod M16 = x mod M16.
Proof.
  change M32 with (M16 * M16). rewrite Z.rem_mul_r by (discriminate || reflexivity).
  rewrite (Z.mul_comm M16), Z.mod_add by discriminate. apply Z.mod_mod. discriminate.
Qed.

(* both step functions agree with the specification's on ARBITRARY integers: no word16 hypothesis is needed here or
   in what follows, up to the closed form *)
Lemma fl_step_spec st w : fl_step st w = spec_step st w.
Proof.
  destruct st as [s1 s2]. unfold fl_step, spec_step, add16. cbn [fst snd].
  rewrite !land_ffff. rewrite !Z.mod_mod by (unfold M16; lia). reflexivity.
Qed.

Lemma step_unit_spec st w : step_unit st w = spec_step st w.
Proof.
  destruct st as [s1 s2]. unfold step_unit, spec_step, add32. cbn [fst snd].
  rewrite !land_ffff, !mod32_mod16. rewrite (Z.add_comm w s1).
  rewrite (Z.add_comm ((s1 + w) mod M16) s2). reflexivity.
Qed.

Lemma fold_left_ext {A B} (f g : A -> B -> A) : (forall a b, f a b = g a b) ->
  forall l a, fold_left f l a = fold_left g l a.
Proof. intros E. induction l as [|b l IH]; intros a; cbn [fold_left]; [reflexivity|]. rewrite E. apply IH. Qed.

Lemma spec_step_range st w : 0 <= fst (spec_step st w) < M16 /\ 0 <= snd (spec_step st w) < M16.
Proof. unfold spec_step; cbn [fst snd]. split; apply Z.mod_pos_bound; reflexivity. Qed.

(* whatever the sums were, one step leaves them reduced: only the last word of a list matters for the range *)
Lemma sums_range ws s1 s2 : fold_left spec_step ws (0, 0) = (s1, s2) -> 0 <= s1 < M16 /\ 0 <= s2 < M16.
Proof.
  destruct ws as [|w ws _] using rev_ind; intros E.
  - injection E as <- <-. unfold M16. lia.
  - rewrite fold_left_app in E. pose proof (spec_step_range (fold_left spec_step ws (0, 0)) w) as R.
    cbn [fold_left] in E. rewrite E in R. exact R.
Qed.

Theorem cksum_fl_spec ws : cksum_fl ws = cksum_spec ws.
Proof.
  unfold cksum_fl, cksum_spec. rewrite (fold_left_ext _ _ fl_step_spec).
  destruct (fold_left spec_step ws (0, 0)) as [s1 s2] eqn:E. apply sums_range in E.
  apply lor_shiftl_add; [lia|]. apply E.
Qed.

Theorem cksum_rtl_spec ws : cksum_rtl ws = cksum_spec ws.
Proof.
  unfold cksum_rtl, cksum_spec, shl32. rewrite (fold_left_ext _ _ step_unit_spec).
  destruct (fold_left spec_step ws (0, 0)) as [s1 s2] eqn:E. apply sums_range in E.
  rewrite (Z.mod_small (Z.shiftl s2 16) M32).
  2:{ rewrite shiftl_mul by lia. change (2 ^ 16) with M16. unfold M16, M32 in *; lia. }
  apply lor_shiftl_add; [lia|]. apply E.
Qed.

Theorem cksum_rtl_fl ws : cksum_rtl ws = cksum_fl ws.
Proof. rewrite cksum_rtl_spec, cksum_fl_spec. reflexivity. Qed.

Theorem cksum_spec_range ws : 0 <= cksum_spec ws < M32.
Proof.
  unfold cksum_spec. destruct (fold_left spec_step ws (0, 0)) as [s1 s2] eqn:E. apply sums_range in E.
  unfold M16, M32 in *. lia.
Qed.

(* the two running sums may be taken over the integers and reduced at the end; for a list of known length the
   integer sums are the closed form *)
Lemma fold_spec_step_mod ws : forall a b,
  fold_left spec_step ws (a mod M16, b mod M16) =
  (fst (fold_left (fun st w => (fst st + w, snd st + (fst st + w))) ws (a, b)) mod M16,
   snd (fold_left (fun st w => (fst st + w, snd st + (fst st + w))) ws (a, b)) mod M16).
Proof.
  induction ws as [|w ws IH]; intros a b; cbn [fold_left fst snd]; [reflexivity|]. rewrite <- IH.
  unfold spec_step at 2. cbn [fst snd].
  rewrite Z.add_mod_idemp_l, Z.add_mod_idemp_l, Z.add_mod_idemp_r by discriminate. reflexivity.
Qed.

Theorem cksum_spec_closed8 w0 w1 w2 w3 w4 w5 w6 w7 :
  cksum_spec [w0; w1; w2; w3; w4; w5; w6; w7] = cksum_closed8 w0 w1 w2 w3 w4 w5 w6 w7.
Proof.
  unfold cksum_spec, cksum_closed8. rewrite (fold_spec_step_mod _ 0 0). cbn [fold_left fst snd].
  do 3 f_equal. ring.
Qed.

(* the words16 hypothesis matches the property's wording; it is not used *)
Theorem cksum_all_8tuples w0 w1 w2 w3 w4 w5 w6 w7 :
  words16 [w0; w1; w2; w3; w4; w5; w6; w7] ->
  cksum_rtl [w0; w1; w2; w3; w4; w5; w6; w7] = cksum_fl [w0; w1; w2; w3; w4; w5; w6; w7] /\
  cksum_fl [w0; w1; w2; w3; w4; w5; w6; w7] = cksum_spec [w0; w1; w2; w3; w4; w5; w6; w7] /\
  cksum_spec [w0; w1; w2; w3; w4; w5; w6; w7] = cksum_closed8 w0 w1 w2 w3 w4 w5 w6 w7.
Proof. intros _. split; [apply cksum_rtl_fl|split; [apply cksum_fl_spec|apply cksum_spec_closed8]]. Qed.

(* the message words_to_b128 builds is the number whose base-65536 digits, least significant first, are the words *)
Fixpoint le_val (l : list Z) : Z := match l with [] => 0 | d :: t => d + M16 * le_val t end.

Lemma pow16_succ n : 2 ^ (16 * Z.of_nat (S n)) = M16 * 2 ^ (16 * Z.of_nat n).
Proof. replace (16 * Z.of_nat (S n)) with (16 + 16 * Z.of_nat n) by lia. apply Z.pow_add_r; lia. Qed.

Lemma le_val_range l : words16 l -> 0 <= le_val l < 2 ^ (16 * Z.of_nat (length l)).
Proof.
  induction 1 as [|d t Hd _ IH]; cbn [le_val length]; [cbn; lia|]. rewrite pow16_succ.
  unfold word16 in Hd. generalize dependent (2 ^ (16 * Z.of_nat (length t))). intros. nia.
Qed.

Lemma le_val_digit l : words16 l -> forall i, (i < length l)%nat ->
  (le_val l / 2 ^ (16 * Z.of_nat i)) mod M16 = nth i l 0.
Proof.
  induction 1 as [|d t Hd _ IH]; intros i Hi; cbn [length] in Hi; [lia|]. cbn [le_val]. unfold word16 in Hd.
  destruct i as [|i]; cbn [nth].
  - change (2 ^ (16 * Z.of_nat 0)) with 1. rewrite Z.div_1_r, (Z.mul_comm M16), Z.mod_add by discriminate.
    apply Z.mod_small. exact Hd.
  - rewrite pow16_succ, <- Z.div_div by (discriminate || (apply pow2_gt0; lia)).
    rewrite (Z.mul_comm M16), Z.div_add, (Z.div_small d), Z.add_0_l by (discriminate || exact Hd).
    apply IH. lia.
Qed.

Lemma pack_fold rest : words16 rest -> forall n x, 0 <= n -> 0 <= x < 2 ^ n ->
  fold_left pack_step rest (n, x) = (n + 16 * Z.of_nat (length rest), x + 2 ^ n * le_val rest).
Proof.
  induction 1 as [|y rest Hy _ IH]; intros n x Hn Hx; cbn [fold_left pack_step length le_val]; [f_equal; lia|].
  rewrite lor_shiftl_add by lia. unfold word16 in Hy. rewrite IH.
  - rewrite Z.pow_add_r by lia. change (2 ^ 16) with M16. f_equal; [lia|ring].
  - lia.
  - rewrite Z.pow_add_r by lia. change (2 ^ 16) with M16. generalize dependent (2 ^ n). intros. nia.
Qed.

Lemma pack_words_val ws : ws <> [] -> words16 ws -> pack_words ws = (16 * Z.of_nat (length ws), le_val ws).
Proof.
  intros Hne Hw. destruct Hw as [|w rest Hy Hr]; [congruence|]. unfold pack_words.
  rewrite (pack_fold rest Hr) by (exact Hy || lia). cbn [length le_val]. f_equal. lia.
Qed.

(* word i of the list is bits [16i, 16i+16) of words_to_b128(ws): any length >= 1, in particular 8 *)
Theorem cksum_words_order ws i : ws <> [] -> words16 ws -> (i < length ws)%nat ->
  word_of (snd (pack_words ws)) (Z.of_nat i) = nth i ws 0.
Proof.
  intros Hne Hw Hi. rewrite pack_words_val by assumption. unfold word_of. cbn [snd].
  rewrite shiftr_div by lia. apply le_val_digit; assumption.
Qed.

Theorem pack_words_width ws : ws <> [] -> words16 ws ->
  fst (pack_words ws) = 16 * Z.of_nat (length ws) /\ 0 <= snd (pack_words ws) < 2 ^ fst (pack_words ws).
Proof. intros Hne Hw. rewrite pack_words_val by assumption. split; [reflexivity|apply le_val_range; exact Hw]. Qed.

Lemma unpack_pack ws : ws <> [] -> words16 ws ->
  map (fun i => word_of (snd (pack_words ws)) (Z.of_nat i)) (seq 0 (length ws)) = ws.
Proof.
  intros Hne Hw. set (f := fun i => word_of (snd (pack_words ws)) (Z.of_nat i)).
  apply (nth_ext _ _ (f 0%nat) 0); [rewrite map_length; apply seq_length|].
  intros i Hi. rewrite map_length, seq_length in Hi. rewrite map_nth, seq_nth by exact Hi.
  apply cksum_words_order; assumption.
Qed.

Theorem unpack_pack8 w0 w1 w2 w3 w4 w5 w6 w7 :
  words16 [w0; w1; w2; w3; w4; w5; w6; w7] ->
  fst (pack_words [w0; w1; w2; w3; w4; w5; w6; w7]) = 128 /\
  unpack_words (snd (pack_words [w0; w1; w2; w3; w4; w5; w6; w7])) = [w0; w1; w2; w3; w4; w5; w6; w7].
Proof.
  intros Hw. split; [apply pack_words_width; [discriminate|exact Hw]|].
  apply (unpack_pack [w0; w1; w2; w3; w4; w5; w6; w7]); [discriminate|exact Hw].
Qed.
