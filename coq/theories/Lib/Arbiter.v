(* Lib/Arbiter.v — executable model of pymtl3/stdlib/basic_rtl/arbiters.py
   (RoundRobinArbiter, RoundRobinArbiterEn) and of the RegEnRst priority register
   (pymtl3/stdlib/basic_rtl/registers.py), parametric in nreqs.

   The model follows the code's own algorithm, update block by update block (the doubled
   request vector and the kill chain), NOT the intended behaviour.  The intended behaviour
   is the short abstract specification at the end (first requester at or after the priority
   pointer, cyclically).  Lib/ArbiterProofs.v proves model = specification for every nreqs.

   Bit vectors are functions nat -> bool (bit i of a Bits value); the register content is a
   list of bool of length nreqs so that the state is a normal form after every cycle.
   No proofs in this file. *)
From PV Require Import Base.Prelude.
Local Open Scope nat_scope.

Definition bv := nat -> bool.

Definition of_list (l : list bool) : bv := fun i => nth i l false.
Definition to_list (n : nat) (f : bv) : list bool := map f (seq 0 n).
Definition bv_of_Z (z : Z) : bv := fun i => Z.testbit z (Z.of_nat i).
Definition Z_of_list (l : list bool) : Z := fold_right (fun b acc => (b2z b + 2 * acc)%Z) 0%Z l.

(* ------------------------------------------------------------------ combinational blocks *)

(* comb_reqs_int:  reqs_int[0:nreqs] @= reqs ; reqs_int[nreqs:2*nreqs] @= reqs *)
Definition comb_reqs_int (n : nat) (reqs : bv) : bv :=
  fun i => if i <? n then reqs i else if i <? 2 * n then reqs (i - n) else false.

(* comb_priority_int:  priority_int[0:nreqs] @= priority_reg.out ; priority_int[nreqs:2*nreqs] @= 0 *)
Definition comb_priority_int (n : nat) (prio_out : bv) : bv :=
  fun i => if i <? n then prio_out i else false.

(* comb_kills:  kills[0] @= 1
                for i in range(2*nreqs):
                  if priority_int[i]: kills[i+1] @= reqs_int[i]
                  else:               kills[i+1] @= kills[i] | (~kills[i] & reqs_int[i])      *)
Fixpoint comb_kills (priority_int reqs_int : bv) (i : nat) : bool :=
  match i with
  | O => true
  | S j => if priority_int j then reqs_int j
           else let k := comb_kills priority_int reqs_int j in k || (negb k && reqs_int j)
  end.

(* comb_grants_int:  for i in range(2*nreqs):
                       if priority_int[i]: grants_int[i] @= reqs_int[i]
                       else:               grants_int[i] @= ~kills[i] & reqs_int[i]           *)
Definition comb_grants_int (n : nat) (priority_int reqs_int kills : bv) : bv :=
  fun i => if i <? 2 * n
           then (if priority_int i then reqs_int i else negb (kills i) && reqs_int i)
           else false.

(* comb_grants:  for i in range(nreqs): grants[i] @= grants_int[i] | grants_int[nreqs+i] *)
Definition comb_grants (n : nat) (grants_int : bv) : bv :=
  fun i => if i <? n then grants_int i || grants_int (n + i) else false.

(* `s.grants != 0` on an nreqs-bit value *)
Definition nonzero (n : nat) (v : bv) : bool := existsb v (seq 0 n).

(* comb_priority_en:  RoundRobinArbiter:   priority_en @= grants != 0
                      RoundRobinArbiterEn: priority_en @= (grants != 0) & en *)
Definition comb_priority_en (n : nat) (grants : bv) : bool := nonzero n grants.
Definition comb_priority_en_En (n : nat) (grants : bv) (en : bool) : bool := nonzero n grants && en.

(* connect( m.in_[1:nreqs], s.grants[0:nreqs-1] ) ; connect( m.in_[0], s.grants[nreqs-1] ) *)
Definition reg_in (n : nat) (grants : bv) : bv :=
  fun i => if i =? 0 then grants (n - 1) else if i <? n then grants (i - 1) else false.

(* RegEnRst.up_regenrst:  if reset: out <<= reset_value   elif en: out <<= in_ *)
Definition reg_next (n : nat) (reset en : bool) (in_ : bv) (out reset_value : list bool) : list bool :=
  if reset then reset_value else if en then to_list n in_ else out.

(* the whole combinational path reqs, priority_reg.out |-> grants *)
Definition grants_of (n : nat) (reqs : bv) (prio_out : list bool) : bv :=
  let reqs_int := comb_reqs_int n reqs in
  let priority_int := comb_priority_int n (of_list prio_out) in
  let kills := comb_kills priority_int reqs_int in
  comb_grants n (comb_grants_int n priority_int reqs_int kills).

(* ------------------------------------------------------------------ the sequential machine *)

(* the register holding a 1 in position p and 0 elsewhere *)
Definition ptr_state (n p : nat) : list bool := to_list n (fun i => i =? p).
(* RegEnRst( Type, reset_value = 1 ): bit 0 set *)
Definition reset_state (n : nat) : list bool := ptr_state n 0.
(* a freshly elaborated simulator before any reset: all registers 0 *)
Definition cold_state (n : nat) : list bool := to_list n (fun _ => false).

(* one cycle: inputs (reset, en, reqs); en is ignored by RoundRobinArbiter (isEn = false) *)
Definition cyc : Type := bool * bool * bv.
Definition c_rst (c : cyc) : bool := fst (fst c).
Definition c_en  (c : cyc) : bool := snd (fst c).
Definition c_reqs (c : cyc) : bv := snd c.

(* returns (grants seen during the cycle, register content after the clock edge) *)
Definition step (n : nat) (isEn : bool) (st : list bool) (c : cyc) : list bool * list bool :=
  let g := to_list n (grants_of n (c_reqs c) st) in
  let pen := if isEn then comb_priority_en_En n (of_list g) (c_en c) else comb_priority_en n (of_list g) in
  (g, reg_next n (c_rst c) pen (reg_in n (of_list g)) st (reset_state n)).

Fixpoint run (n : nat) (isEn : bool) (st : list bool) (h : list cyc) : list (list bool) :=
  match h with
  | [] => []
  | c :: h' => let r := step n isEn st c in fst r :: run n isEn (snd r) h'
  end.

Fixpoint final_state (n : nat) (isEn : bool) (st : list bool) (h : list cyc) : list bool :=
  match h with
  | [] => st
  | c :: h' => final_state n isEn (snd (step n isEn st c)) h'
  end.

(* ------------------------------------------------------------------ abstract specification *)

(* least k < m with f k, if any *)
Fixpoint find_first (f : nat -> bool) (m : nat) : option nat :=
  match m with
  | O => None
  | S m' => match find_first f m' with
            | Some k => Some k
            | None => if f m' then Some m' else None
            end
  end.

(* the input that wins: the first requester at or after pointer p, cyclically *)
Definition spec_grant_index (n : nat) (reqs : bv) (p : nat) : option nat :=
  option_map (fun k => (p + k) mod n) (find_first (fun k => reqs ((p + k) mod n)) n).

Definition spec_grants (n : nat) (reqs : bv) (p : nat) : bv :=
  fun i => match spec_grant_index n reqs p with None => false | Some g => i =? g end.

(* does the priority move in this cycle (given that something is granted)? *)
Definition advances (isEn : bool) (c : cyc) : bool := negb isEn || c_en c.

Definition spec_next_ptr (n : nat) (isEn : bool) (p : nat) (c : cyc) : nat :=
  if c_rst c then 0
  else match spec_grant_index n (c_reqs c) p with
       | Some g => if advances isEn c then (g + 1) mod n else p
       | None => p
       end.

Fixpoint spec_run (n : nat) (isEn : bool) (p : nat) (h : list cyc) : list (list bool) :=
  match h with
  | [] => []
  | c :: h' => to_list n (spec_grants n (c_reqs c) p) :: spec_run n isEn (spec_next_ptr n isEn p c) h'
  end.

(* rotate left by one inside n bits: bit i of the result is bit i-1 of v (bit n-1 wraps to bit 0) *)
Definition rotl (n : nat) (v : bv) : bv := fun i => if i <? n then v ((i + n - 1) mod n) else false.

(* cyclic distance from the pointer p forward to input i *)
Definition dist (n p i : nat) : nat := (i + n - p) mod n.

Fixpoint count_adv (isEn : bool) (h : list cyc) : nat :=
  match h with [] => 0 | c :: h' => (if advances isEn c then 1 else 0) + count_adv isEn h' end.

(* ------------------------------------------------------------------ vocabulary of the theorems *)

(* the invariant: the priority register has width n and exactly one bit set *)
Definition onehot (n : nat) (st : list bool) : Prop :=
  length st = n /\ exists p, p < n /\ forall i, i < n -> nth i st false = (i =? p).

(* input i requests in every cycle of h and there is no reset *)
Definition keeps_requesting (i : nat) (h : list cyc) : Prop :=
  forall c, In c h -> c_rst c = false /\ c_reqs c i = true.

(* i is granted in cycle t of the run, a cycle in which the priority advances, and at most `bound`
   advancing cycles have happened up to and including t *)
Definition granted_within (n : nat) (isEn : bool) (st : list bool) (h : list cyc) (i bound : nat) : Prop :=
  exists t c g, nth_error h t = Some c /\ nth_error (run n isEn st h) t = Some g /\
                advances isEn c = true /\ nth i g false = true /\
                count_adv isEn (firstn (S t) h) <= bound.

(* ------------------------------------------------------------------ harness interface *)

Definition zcyc : Type := bool * bool * Z.      (* reset, en, reqs as an unsigned integer *)
Definition cyc_of_z (c : zcyc) : cyc := (fst (fst c), snd (fst c), bv_of_Z (snd c)).

(* grants per cycle, as integers, of the model started cold (all-zero register) or just after reset *)
Definition replay (n : nat) (isEn cold : bool) (h : list zcyc) : list Z :=
  map Z_of_list (run n isEn (if cold then cold_state n else reset_state n) (map cyc_of_z h)).

Fixpoint zlist_eqb (a b : list Z) : bool :=
  match a, b with
  | [], [] => true
  | x :: a', y :: b' => (x =? y)%Z && zlist_eqb a' b'
  | _, _ => false
  end.

(* case = (isEn, cold, nreqs, history, grants observed on the real component) *)
Definition replay_ok (c : bool * bool * nat * list zcyc * list Z) : bool :=
  let '(isEn, cold, n, h, obs) := c in zlist_eqb (replay n isEn cold h) obs.
