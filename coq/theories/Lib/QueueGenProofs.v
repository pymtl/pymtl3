(* Lib/QueueGenProofs.v — T-gen tie of C17: the designs in Gen/QueueGen.v (the REAL NormalQueueRTL / PipeQueueRTL /
   BypassQueueRTL of /repo with a Bits2 entry type, translated block by block on every run: control, datapath, register
   file, bypass mux, `//= lambda` blocks, net blocks) compute in one simulated cycle (RTL/Design.v) what the register-level
   models of Lib/QueueRTL.v compute: crtl_step (head / tail / count / register file) for 2 and 3 entries, e1_step
   (full bit / entry) for the one-entry classes — the models the refinement theorems of Props/C17.v are about.

   The statements to read are qm_spec / q1_spec: for all register contents with head, tail < n and count <= n, all words
   of the register file and messages over the 2-bit alphabet (3-entry instances: words over {1, 2}, which keeps the sweep at
   3*3*4*2^3*32 cases per kind; messages over all four values), reset, enq.en, deq.en, the other signals 0 before the cycle.
   Observed after sim_eval_combinational: enq.rdy, deq.rdy, count, deq.ret; after sim_tick: every register.  (In the
   generated designs an output and a register may be one signal id: count is the count register, and for one entry count is
   the full bit and deq.ret the entry register.)
   They are proved by evaluating boolean sweeps.  For 2 and 3 entries a case runs one combinational pass and the clock edge
   of strip D; qm_all_sound supplies the second pass of the tick (RTL/DesignProofs.v, tick_from_halves) from the determinism
   certificate obs_det_ok and from comb_keeps (no combinational block writes a register), both evaluated once per design. *)
From PV Require Import Base.Prelude Bits.BitsSpec RTL.Syntax RTL.Eval Sched.Accept RTL.Footprint RTL.FootprintSound RTL.Design RTL.DesignProofs Lib.Fifo Lib.QueueRTL Gen.QueueGen.
Open Scope Z_scope.

Record q_ports : Set := mkQP { q_reset : nat; q_enq_en : nat; q_enq_rdy : nat; q_enq_msg : nat;
                               q_deq_en : nat; q_deq_rdy : nat; q_deq_ret : nat; q_count : nat }.
Record qm_regs : Set := mkQM { r_head : nat; r_tail : nat; r_cnt : nat; r_words : list nat }.
Record q1_regs : Set := mkQ1 { r_full : nat; r_entry : nat }.

Definition zeros (D : rdesign) : senv := map (fun _ => 0) (rd_shapes D).
Fixpoint set_many (ids : list nat) (vs : list Z) (e : senv) : senv :=
  match ids, vs with
  | k :: ids', v :: vs' => set_many ids' vs' (set_nth k v e)
  | _, _ => e
  end.
Definition q_inputs (P : q_ports) (rst enq : bool) (msg : Z) (deq : bool) (e : senv) : senv :=
  set_nth (q_reset P) (b2z rst) (set_nth (q_enq_en P) (b2z enq) (set_nth (q_enq_msg P) msg (set_nth (q_deq_en P) (b2z deq) e))).

Definition qm_env (D : rdesign) (P : q_ports) (R : qm_regs) (hd tl ct : nat) (ws : list Z) rst enq msg deq : senv :=
  q_inputs P rst enq msg deq
    (set_nth (r_head R) (Z.of_nat hd) (set_nth (r_tail R) (Z.of_nat tl) (set_nth (r_cnt R) (Z.of_nat ct)
       (set_many (r_words R) ws (zeros D))))).

(* all lists of length n over the alphabet A *)
Fixpoint words (A : list Z) (n : nat) : list (list Z) :=
  match n with O => [[]] | S m => flat_map (fun w => map (cons w) (words A m)) A end.
Definition bools := [false; true].

Definition qm_spec (D : rdesign) (P : q_ports) (R : qm_regs) (k : qkind) (n : nat) (A : list Z) : Prop :=
  forall hd tl ct ws rst enq msg deq, (hd < n)%nat -> (tl < n)%nat -> (ct <= n)%nat -> In ws (words A n) -> 0 <= msg < 4 ->
  exists e1 e3,
    sim_tick_obs D (qm_env D P R hd tl ct ws rst enq msg deq) = Ok (e1, e3) /\
    let s := mkC hd tl ct (fun a => nth a ws 0) in
    let i := mkIn rst enq msg deq in
    let r := crtl_step k n true s i in
    nth (q_enq_rdy P) e1 0 = b2z (f_enq_rdy (snd r)) /\ nth (q_deq_rdy P) e1 0 = b2z (f_deq_rdy (snd r)) /\
    nth (q_count P) e1 0 = Z.of_nat (f_count (snd r)) /\ nth (q_deq_ret P) e1 0 = c_ret k s i /\
    nth (r_head R) e3 0 = Z.of_nat (c_head (fst r)) /\ nth (r_tail R) e3 0 = Z.of_nat (c_tail (fst r)) /\
    nth (r_cnt R) e3 0 = Z.of_nat (c_count (fst r)) /\
    forall a, (a < n)%nat -> nth (nth a (r_words R) 0%nat) e3 0 = c_regs (fst r) a.

Lemma msg_in z : 0 <= z < 4 -> In z [0; 1; 2; 3].
Proof. intros H. assert (z = 0 \/ z = 1 \/ z = 2 \/ z = 3) as [->|[->|[->| ->]]] by lia; cbn; auto. Qed.

Lemma set_many_length ids vs e : length (set_many ids vs e) = length e.
Proof.
  revert vs e. induction ids as [|k ids IH]; intros [|v vs] e; cbn [set_many]; try reflexivity.
  rewrite IH. apply set_nth_length.
Qed.
Lemma q_inputs_length P rst enq msg deq e : length (q_inputs P rst enq msg deq e) = length e.
Proof. unfold q_inputs. rewrite !set_nth_length. reflexivity. Qed.
Lemma qm_env_length D P R hd tl ct ws rst enq msg deq : length (qm_env D P R hd tl ct ws rst enq msg deq) = rd_nsig D.
Proof. unfold qm_env. rewrite q_inputs_length, !set_nth_length, set_many_length. apply map_length. Qed.

Definition sig_whole (D : rdesign) (k : nat) : ivl := (k, 0, swidth (nth k (rd_shapes D) (ShBits 0))).
Definition q_ins (P : q_ports) : list nat := [q_reset P; q_enq_en P; q_enq_msg P; q_deq_en P].
Definition q_outs (P : q_ports) : list nat := [q_enq_rdy P; q_deq_rdy P; q_count P; q_deq_ret P].
Definition qm_reglist (R : qm_regs) : list nat := r_head R :: r_tail R :: r_cnt R :: r_words R.
Definition q1_reglist (R : q1_regs) : list nat := [r_full R; r_entry R].

(* determinism certificate: what is observed is a function of the inputs and registers only *)
Definition obs_det_ok (D : rdesign) (ins regs outs : list nat) : bool :=
  wf_shapes (rd_shapes D) &&
  match det_tick D (map (sig_whole D) (ins ++ regs)) with
  | Some (Q1, Q2) => covers Q1 (map (sig_whole D) outs) && covers Q2 (map (sig_whole D) regs)
  | None => false
  end.

(* two environments that carry the same inputs and registers — whatever else they hold — raise the same exception or
   show the same outputs after sim_eval_combinational and hold the same registers after sim_tick *)
Theorem obs_det_sound D ins regs outs : obs_det_ok D ins regs outs = true ->
  forall e1 e2, eagree (mem_fp (map (sig_whole D) (ins ++ regs))) e1 e2 ->
  match sim_tick_obs D e1, sim_tick_obs D e2 with
  | Ok (a1, a3), Ok (c1, c3) => eagree (mem_fp (map (sig_whole D) outs)) a1 c1 /\ eagree (mem_fp (map (sig_whole D) regs)) a3 c3
  | Err x, Err y => x = y
  | _, _ => False
  end.
Proof.
  unfold obs_det_ok. intros H e1 e2 A. apply andb_prop in H. destruct H as [Ws H].
  destruct (det_tick D (map (sig_whole D) (ins ++ regs))) as [[Q1 Q2]|] eqn:Dt; [|discriminate].
  apply andb_prop in H. destruct H as [C1 C2].
  pose proof (sim_tick_obs_det D _ Q1 Q2 e1 e2 Ws Dt A) as O.
  destruct (sim_tick_obs D e1) as [[a1 a3]|x]; destruct (sim_tick_obs D e2) as [[c1 c3]|y]; try exact O.
  destruct O as [O1 O3]. split.
  - eapply eagree_weaken; [|exact O1]. apply covers_sound. exact C1.
  - eapply eagree_weaken; [|exact O3]. apply covers_sound. exact C2.
Qed.


Definition same_on (ids : list nat) (e e' : senv) : bool := forallb (fun s => nth s e 0 =? nth s e' 0) ids.
Lemma same_on_agree D ids e e' : length e = length e' -> same_on ids e e' = true -> eagree (mem_fp (map (sig_whole D) ids)) e e'.
Proof.
  intros L H. split; [exact L|]. intros s j Hm. unfold mem_fp in Hm. apply existsb_exists in Hm as (a & Ha & Hm).
  apply in_map_iff in Ha as (k & <- & Hk). apply in_ivl_spec in Hm as [Hs _]. cbn [fst iroot sig_whole] in Hs. subst s.
  unfold same_on in H. rewrite forallb_forall in H. specialize (H k Hk). apply Z.eqb_eq in H. rewrite H. reflexivity.
Qed.

Definition qm_regs_ok (R : qm_regs) (n : nat) (c : cstate Z) (e : senv) : bool :=
  (nth (r_head R) e 0 =? Z.of_nat (c_head c)) && (nth (r_tail R) e 0 =? Z.of_nat (c_tail c)) &&
  (nth (r_cnt R) e 0 =? Z.of_nat (c_count c)) && forallb (fun a => nth (nth a (r_words R) 0%nat) e 0 =? c_regs c a) (seq 0 n).

(* the model's next state as a point of the swept domain, if it is one.  find only proposes the word list; qm_case
   checks with same_on that the environment after the edge carries it *)
Definition next_swept (n : nat) (A : list Z) (c : cstate Z) : option (list Z) :=
  if (c_head c <? n)%nat && (c_tail c <? n)%nat && (c_count c <=? n)%nat
  then find (fun w => forallb (fun a => nth a w 0 =? c_regs c a) (seq 0 n)) (words A n) else None.
Lemma next_swept_In n A c w : next_swept n A c = Some w ->
  (c_head c < n)%nat /\ (c_tail c < n)%nat /\ (c_count c <= n)%nat /\ In w (words A n).
Proof.
  unfold next_swept. destruct (_ && _) eqn:Dom; [|discriminate]. intros F. apply find_some in F as [Hw _].
  apply andb_prop in Dom as [Dom D3]. apply andb_prop in Dom as [D1 D2]. repeat split; try lia. exact Hw.
Qed.

(* One combinational pass and the clock edge per case, on strip D (the design without its empty net blocks).  The second
   pass of the tick runs on the environment e2 that carries the same inputs and the model's next registers.  When that
   state is itself in the swept domain, its first pass is run by another case and tick_from_halves supplies the second
   pass of this one (the registers keep the value the edge gave them: no combinational block writes them).  Otherwise
   (a message outside the alphabet A was enqueued) the second pass is run here.
   crtl_step k n true: the en/rdy queues gate rdy with ~reset (Lib/QueueRTL.v). *)
Definition qm_case (D : rdesign) (G : decls) (P : q_ports) (R : qm_regs) (k : qkind) (n : nat) (A : list Z)
           (hd tl ct : nat) (ws : list Z) (rst enq : bool) (msg : Z) (deq : bool) : bool :=
  let s := mkC hd tl ct (fun a => nth a ws 0) in
  let i := mkIn rst enq msg deq in
  let r := crtl_step k n true s i in
  match eval_comb_with G D (qm_env D P R hd tl ct ws rst enq msg deq) with
  | Ok e1 =>
      (nth (q_enq_rdy P) e1 0 =? b2z (f_enq_rdy (snd r))) && (nth (q_deq_rdy P) e1 0 =? b2z (f_deq_rdy (snd r))) &&
      (nth (q_count P) e1 0 =? Z.of_nat (f_count (snd r))) && (nth (q_deq_ret P) e1 0 =? c_ret k s i) &&
      match clock_edge_with G D e1 with
      | Ok e2 =>
          qm_regs_ok R n (fst r) e2 &&
          match next_swept n A (fst r) with
          | Some w => same_on (q_ins P ++ qm_reglist R) e2
                        (qm_env D P R (c_head (fst r)) (c_tail (fst r)) (c_count (fst r)) w rst enq msg deq)
          | None => match eval_comb_with G D e2 with Ok e3 => qm_regs_ok R n (fst r) e3 | Err _ => false end
          end
      | Err _ => false
      end
  | Err _ => false
  end.

Definition qm_all (D : rdesign) (P : q_ports) (R : qm_regs) (k : qkind) (n : nat) (A : list Z) : bool :=
  let G := rd_decls D in
  (length (r_words R) =? n)%nat &&
  forallb (fun hd => forallb (fun tl => forallb (fun ct => forallb (fun ws =>
  forallb (fun rst => forallb (fun enq => forallb (fun msg => forallb (fun deq =>
    qm_case D G P R k n A hd tl ct ws rst enq msg deq) bools) [0; 1; 2; 3]) bools) bools)
  (words A n)) (seq 0 (S n))) (seq 0 n)) (seq 0 n).

Lemma qm_all_case D P R k n A : qm_all (strip D) P R k n A = true ->
  forall hd tl ct ws rst enq msg deq, (hd < n)%nat -> (tl < n)%nat -> (ct <= n)%nat -> In ws (words A n) -> 0 <= msg < 4 ->
  qm_case D (rd_decls D) P R k n A hd tl ct ws rst enq msg deq = true.
Proof.
  unfold qm_all. cbv zeta. intros H hd tl ct ws rst enq msg deq Hh Ht Hc Hw Hm. apply andb_prop in H as [_ H].
  rewrite forallb_forall in H. specialize (H hd ltac:(apply in_seq; lia)).
  rewrite forallb_forall in H. specialize (H tl ltac:(apply in_seq; lia)).
  rewrite forallb_forall in H. specialize (H ct ltac:(apply in_seq; lia)).
  rewrite forallb_forall in H. specialize (H ws Hw).
  rewrite forallb_forall in H. specialize (H rst (bools_in rst)).
  rewrite forallb_forall in H. specialize (H enq (bools_in enq)).
  rewrite forallb_forall in H. specialize (H msg (msg_in msg Hm)).
  rewrite forallb_forall in H. specialize (H deq (bools_in deq)).
  unfold qm_case in *. change (qm_env (strip D)) with (qm_env D) in H.
  rewrite !eval_comb_with_decls, !clock_edge_with_decls in *. change (clock_edge (strip D)) with (clock_edge D) in H.
  rewrite sim_eval_comb_strip in H by apply qm_env_length.
  destruct (sim_eval_comb D (qm_env D P R hd tl ct ws rst enq msg deq)) as [e1|] eqn:E1; [|discriminate].
  destruct (clock_edge D e1) as [e2|] eqn:E2; [|exact H].
  rewrite sim_eval_comb_strip in H; [exact H|].
  rewrite (clock_edge_length _ _ _ E2). exact (sim_eval_comb_length _ _ _ (qm_env_length _ _ _ _ _ _ _ _ _ _ _) E1).
Qed.

(* e' is the environment after the second pass: it holds the registers of e, the environment after the edge *)
Lemma qm_regs_ok_spec R n c e : length (r_words R) = n -> qm_regs_ok R n c e = true ->
  forall e', (forall s, In s (qm_reglist R) -> nth s e' 0 = nth s e 0) ->
  nth (r_head R) e' 0 = Z.of_nat (c_head c) /\ nth (r_tail R) e' 0 = Z.of_nat (c_tail c) /\
  nth (r_cnt R) e' 0 = Z.of_nat (c_count c) /\ forall a, (a < n)%nat -> nth (nth a (r_words R) 0%nat) e' 0 = c_regs c a.
Proof.
  unfold qm_regs_ok, qm_reglist. intros L H e' K. repeat (apply andb_prop in H as [H ?]). rewrite forallb_forall in H0.
  rewrite !K by (cbn [In]; auto). repeat split; try lia.
  intros a Ha. rewrite K by (right; right; right; apply nth_In; lia). specialize (H0 a ltac:(apply in_seq; lia)). lia.
Qed.

Theorem qm_all_sound D P R k n A : obs_det_ok D (q_ins P) (qm_reglist R) (q_outs P) = true ->
  comb_keeps D (qm_reglist R) = true -> qm_all (strip D) P R k n A = true -> qm_spec D P R k n A.
Proof.
  intros Hd K H hd tl ct ws rst enq msg deq Hh Ht Hc Hw Hm. cbv zeta.
  pose proof (qm_all_case D P R k n A H) as C. apply andb_prop in H as [L _]. apply Nat.eqb_eq in L.
  pose proof (C hd tl ct ws rst enq msg deq Hh Ht Hc Hw Hm) as C1. unfold qm_case in C1.
  rewrite !eval_comb_with_decls, clock_edge_with_decls in C1.
  set (r := crtl_step k n true (mkC hd tl ct (fun a => nth a ws 0)) (mkIn rst enq msg deq)) in *.
  destruct (sim_eval_comb D (qm_env D P R hd tl ct ws rst enq msg deq)) as [e1|] eqn:E1; [|discriminate].
  apply andb_prop in C1 as [O C1]. destruct (clock_edge D e1) as [e2|] eqn:E2; [|discriminate].
  apply andb_prop in C1 as [R2 C1].
  (* the tick, and the registers after it: those after the edge, or checked by the case itself *)
  assert (T : exists e3, sim_tick_obs D (qm_env D P R hd tl ct ws rst enq msg deq) = Ok (e1, e3) /\
                         ((forall s, In s (qm_reglist R) -> nth s e3 0 = nth s e2 0) \/ qm_regs_ok R n (fst r) e3 = true)).
  { destruct (next_swept n A (fst r)) as [w|] eqn:F.
    - (* the next state is swept too: its first pass is this tick's second *)
      apply next_swept_In in F as (D1 & D2 & D3 & Hw').
      pose proof (C (c_head (fst r)) (c_tail (fst r)) (c_count (fst r)) w rst enq msg deq D1 D2 D3 Hw' Hm) as C2.
      unfold qm_case in C2. rewrite eval_comb_with_decls in C2.
      destruct (sim_eval_comb D (qm_env D P R _ _ _ w rst enq msg deq)) as [e1'|] eqn:E1'; [|discriminate].
      unfold obs_det_ok in Hd. apply andb_prop in Hd as [Ws Hd].
      destruct (det_tick D (map (sig_whole D) (q_ins P ++ qm_reglist R))) as [[Q1 Q2]|] eqn:Dt; [|discriminate].
      assert (Ag : eagree (mem_fp (map (sig_whole D) (q_ins P ++ qm_reglist R))) e2
                          (qm_env D P R (c_head (fst r)) (c_tail (fst r)) (c_count (fst r)) w rst enq msg deq)).
      { apply same_on_agree; [|exact C1]. rewrite (clock_edge_length _ _ _ E2), qm_env_length.
        exact (sim_eval_comb_length _ _ _ (qm_env_length _ _ _ _ _ _ _ _ _ _ _) E1). }
      destruct (tick_from_halves D _ Q1 (qm_reglist R) _ e1 e2 _ e1' Ws (det_tick_pass _ _ _ _ Dt) K
                  (qm_env_length _ _ _ _ _ _ _ _ _ _ _) E1 E2 Ag E1') as (e3 & T & Keep). eauto.
    - destruct (sim_eval_comb D e2) as [e3|] eqn:E3; [|discriminate]. exists e3. unfold sim_tick_obs. rewrite E1. cbn [bind].
      rewrite E2. cbn [bind]. rewrite E3. auto. }
  destruct T as (e3 & T & Keep). exists e1, e3. split; [exact T|].
  (* conjunct by conjunct; lia reads (x =? y) = true as x = y *)
  repeat (apply andb_prop in O as [O ?]). split; [lia|]. split; [lia|]. split; [lia|]. split; [lia|].
  destruct Keep as [Keep|R3].
  - exact (qm_regs_ok_spec R n (fst r) e2 L R2 e3 Keep).
  - exact (qm_regs_ok_spec R n (fst r) e3 L R3 e3 (fun _ _ => eq_refl)).
Qed.

(* one entry: the whole tick per case (256 cases).  deq.ret is compared only when the model delivers a message: e1_step has
   no read-port function *)
Definition q1_env (D : rdesign) (P : q_ports) (R : q1_regs) (full : bool) (entry : Z) rst enq msg deq : senv :=
  q_inputs P rst enq msg deq (set_nth (r_full R) (b2z full) (set_nth (r_entry R) entry (zeros D))).

Definition q1_case (D : rdesign) (P : q_ports) (R : q1_regs) (k : qkind)
           (full : bool) (entry : Z) (rst enq : bool) (msg : Z) (deq : bool) : bool :=
  let r := e1_step k (mkO full entry) (mkIn rst enq msg deq) in
  match sim_tick_obs D (q1_env D P R full entry rst enq msg deq) with
  | Ok (e1, e3) =>
      (nth (q_enq_rdy P) e1 0 =? b2z (f_enq_rdy (snd r))) && (nth (q_deq_rdy P) e1 0 =? b2z (f_deq_rdy (snd r))) &&
      (nth (q_count P) e1 0 =? Z.of_nat (f_count (snd r))) &&
      (match f_msg (snd r) with Some m => nth (q_deq_ret P) e1 0 =? m | None => true end) &&
      (nth (r_full R) e3 0 =? b2z (o_full (fst r))) && (nth (r_entry R) e3 0 =? o_entry (fst r))
  | Err _ => false
  end.

Definition q1_all (D : rdesign) (P : q_ports) (R : q1_regs) (k : qkind) : bool :=
  forallb (fun full => forallb (fun entry => forallb (fun rst => forallb (fun enq => forallb (fun msg => forallb (fun deq =>
    q1_case D P R k full entry rst enq msg deq) bools) [0; 1; 2; 3]) bools) bools) [0; 1; 2; 3]) bools.

Definition q1_spec (D : rdesign) (P : q_ports) (R : q1_regs) (k : qkind) : Prop :=
  forall full entry rst enq msg deq, 0 <= entry < 4 -> 0 <= msg < 4 ->
  exists e1 e3,
    sim_tick_obs D (q1_env D P R full entry rst enq msg deq) = Ok (e1, e3) /\
    let r := e1_step k (mkO full entry) (mkIn rst enq msg deq) in
    nth (q_enq_rdy P) e1 0 = b2z (f_enq_rdy (snd r)) /\ nth (q_deq_rdy P) e1 0 = b2z (f_deq_rdy (snd r)) /\
    nth (q_count P) e1 0 = Z.of_nat (f_count (snd r)) /\
    (forall m, f_msg (snd r) = Some m -> nth (q_deq_ret P) e1 0 = m) /\
    nth (r_full R) e3 0 = b2z (o_full (fst r)) /\ nth (r_entry R) e3 0 = o_entry (fst r).

Lemma q1_env_length D P R full entry rst enq msg deq : length (q1_env D P R full entry rst enq msg deq) = rd_nsig D.
Proof. unfold q1_env. rewrite q_inputs_length, !set_nth_length. apply map_length. Qed.

Lemma q1_all_sound D P R k : q1_all (strip D) P R k = true -> q1_spec D P R k.
Proof.
  unfold q1_all. intros H full entry rst enq msg deq He Hm.
  rewrite forallb_forall in H. specialize (H full (bools_in full)).
  rewrite forallb_forall in H. specialize (H entry (msg_in entry He)).
  rewrite forallb_forall in H. specialize (H rst (bools_in rst)).
  rewrite forallb_forall in H. specialize (H enq (bools_in enq)).
  rewrite forallb_forall in H. specialize (H msg (msg_in msg Hm)).
  rewrite forallb_forall in H. specialize (H deq (bools_in deq)).
  unfold q1_case in H. change (q1_env (strip D)) with (q1_env D) in H. rewrite sim_tick_obs_strip in H
    by apply q1_env_length.
  destruct (sim_tick_obs D _) as [[e1 e3]|]; [|discriminate].
  exists e1, e3. split; [reflexivity|]. cbv zeta.
  repeat (apply andb_prop in H; destruct H as [H ?]).
  repeat split; try lia. intros m Em. rewrite Em in *. lia.
Qed.

Definition QP (reset enq_en enq_rdy enq_msg deq_en deq_rdy deq_ret count : nat) := mkQP reset enq_en enq_rdy enq_msg deq_en deq_rdy deq_ret count.
Definition P_nq1 := QP nq1_reset nq1_enq_en nq1_enq_rdy nq1_enq_msg nq1_deq_en nq1_deq_rdy nq1_deq_ret nq1_count.
Definition P_pq1 := QP pq1_reset pq1_enq_en pq1_enq_rdy pq1_enq_msg pq1_deq_en pq1_deq_rdy pq1_deq_ret pq1_count.
Definition P_bq1 := QP bq1_reset bq1_enq_en bq1_enq_rdy bq1_enq_msg bq1_deq_en bq1_deq_rdy bq1_deq_ret bq1_count.
Definition P_nq2 := QP nq2_reset nq2_enq_en nq2_enq_rdy nq2_enq_msg nq2_deq_en nq2_deq_rdy nq2_deq_ret nq2_count.
Definition P_pq2 := QP pq2_reset pq2_enq_en pq2_enq_rdy pq2_enq_msg pq2_deq_en pq2_deq_rdy pq2_deq_ret pq2_count.
Definition P_bq2 := QP bq2_reset bq2_enq_en bq2_enq_rdy bq2_enq_msg bq2_deq_en bq2_deq_rdy bq2_deq_ret bq2_count.
Definition P_nq3 := QP nq3_reset nq3_enq_en nq3_enq_rdy nq3_enq_msg nq3_deq_en nq3_deq_rdy nq3_deq_ret nq3_count.
Definition P_pq3 := QP pq3_reset pq3_enq_en pq3_enq_rdy pq3_enq_msg pq3_deq_en pq3_deq_rdy pq3_deq_ret pq3_count.
Definition P_bq3 := QP bq3_reset bq3_enq_en bq3_enq_rdy bq3_enq_msg bq3_deq_en bq3_deq_rdy bq3_deq_ret bq3_count.
Definition R_nq1 := mkQ1 nq1_st_full nq1_st_entry.
Definition R_pq1 := mkQ1 pq1_st_full pq1_st_entry.
Definition R_bq1 := mkQ1 bq1_st_full bq1_st_entry.
Definition R_nq2 := mkQM nq2_st_head nq2_st_tail nq2_st_count nq2_st_words.
Definition R_pq2 := mkQM pq2_st_head pq2_st_tail pq2_st_count pq2_st_words.
Definition R_bq2 := mkQM bq2_st_head bq2_st_tail bq2_st_count bq2_st_words.
Definition R_nq3 := mkQM nq3_st_head nq3_st_tail nq3_st_count nq3_st_words.
Definition R_pq3 := mkQM pq3_st_head pq3_st_tail pq3_st_count pq3_st_words.
Definition R_bq3 := mkQM bq3_st_head bq3_st_tail bq3_st_count bq3_st_words.

(* legal designs; the emitted combinational order is accepted by sched_ok on the proved footprints *)
Lemma gen_queues_ok : forallb rd_ok [nq1; nq2; nq3; pq1; pq2; pq3; bq1; bq2; bq3] = true.
Proof. vm_cast_no_check (eq_refl true). Qed.

(* vm_cast_no_check: the sweep is evaluated once, by the VM when Qed checks the term, not a second time by the tactic *)
Theorem nq_gen_eq_model_entries1 : q1_spec nq1 P_nq1 R_nq1 Normal.
Proof. apply q1_all_sound. vm_cast_no_check (eq_refl true). Qed.
Theorem pq_gen_eq_model_entries1 : q1_spec pq1 P_pq1 R_pq1 Pipe.
Proof. apply q1_all_sound. vm_cast_no_check (eq_refl true). Qed.
Theorem bq_gen_eq_model_entries1 : q1_spec bq1 P_bq1 R_bq1 Bypass.
Proof. apply q1_all_sound. vm_cast_no_check (eq_refl true). Qed.

(* evaluated once, as one conjunction; gen_queues_det_each hands out the conjuncts the multi-entry instances need *)
Lemma gen_queues_det :
  obs_det_ok nq1 (q_ins P_nq1) (q1_reglist R_nq1) (q_outs P_nq1) && obs_det_ok pq1 (q_ins P_pq1) (q1_reglist R_pq1) (q_outs P_pq1) &&
  obs_det_ok bq1 (q_ins P_bq1) (q1_reglist R_bq1) (q_outs P_bq1) &&
  obs_det_ok nq2 (q_ins P_nq2) (qm_reglist R_nq2) (q_outs P_nq2) && obs_det_ok pq2 (q_ins P_pq2) (qm_reglist R_pq2) (q_outs P_pq2) &&
  obs_det_ok bq2 (q_ins P_bq2) (qm_reglist R_bq2) (q_outs P_bq2) &&
  obs_det_ok nq3 (q_ins P_nq3) (qm_reglist R_nq3) (q_outs P_nq3) && obs_det_ok pq3 (q_ins P_pq3) (qm_reglist R_pq3) (q_outs P_pq3) &&
  obs_det_ok bq3 (q_ins P_bq3) (qm_reglist R_bq3) (q_outs P_bq3) = true.
Proof. vm_cast_no_check (eq_refl true). Qed.

Lemma gen_queues_det_each :
  obs_det_ok nq2 (q_ins P_nq2) (qm_reglist R_nq2) (q_outs P_nq2) = true /\ obs_det_ok pq2 (q_ins P_pq2) (qm_reglist R_pq2) (q_outs P_pq2) = true /\
  obs_det_ok bq2 (q_ins P_bq2) (qm_reglist R_bq2) (q_outs P_bq2) = true /\
  obs_det_ok nq3 (q_ins P_nq3) (qm_reglist R_nq3) (q_outs P_nq3) = true /\ obs_det_ok pq3 (q_ins P_pq3) (qm_reglist R_pq3) (q_outs P_pq3) = true /\
  obs_det_ok bq3 (q_ins P_bq3) (qm_reglist R_bq3) (q_outs P_bq3) = true.
Proof. pose proof gen_queues_det as H. repeat (apply andb_prop in H as [H ?]). tauto. Qed.

(* no combinational block writes head, tail, count or the register file *)
Lemma gen_queues_keep :
  comb_keeps nq2 (qm_reglist R_nq2) = true /\ comb_keeps pq2 (qm_reglist R_pq2) = true /\ comb_keeps bq2 (qm_reglist R_bq2) = true /\
  comb_keeps nq3 (qm_reglist R_nq3) = true /\ comb_keeps pq3 (qm_reglist R_pq3) = true /\ comb_keeps bq3 (qm_reglist R_bq3) = true.
Proof. vm_compute. tauto. Qed.

Theorem nq_gen_eq_model_entries2 : qm_spec nq2 P_nq2 R_nq2 Normal 2 [0; 1; 2; 3].
Proof. apply qm_all_sound; [apply gen_queues_det_each|apply gen_queues_keep|vm_cast_no_check (eq_refl true)]. Qed.
Theorem pq_gen_eq_model_entries2 : qm_spec pq2 P_pq2 R_pq2 Pipe 2 [0; 1; 2; 3].
Proof. apply qm_all_sound; [apply gen_queues_det_each|apply gen_queues_keep|vm_cast_no_check (eq_refl true)]. Qed.
Theorem bq_gen_eq_model_entries2 : qm_spec bq2 P_bq2 R_bq2 Bypass 2 [0; 1; 2; 3].
Proof. apply qm_all_sound; [apply gen_queues_det_each|apply gen_queues_keep|vm_cast_no_check (eq_refl true)]. Qed.

Theorem nq_gen_eq_model_entries3 : qm_spec nq3 P_nq3 R_nq3 Normal 3 [1; 2].
Proof. apply qm_all_sound; [apply gen_queues_det_each|apply gen_queues_keep|vm_cast_no_check (eq_refl true)]. Qed.
Theorem pq_gen_eq_model_entries3 : qm_spec pq3 P_pq3 R_pq3 Pipe 3 [1; 2].
Proof. apply qm_all_sound; [apply gen_queues_det_each|apply gen_queues_keep|vm_cast_no_check (eq_refl true)]. Qed.
Theorem bq_gen_eq_model_entries3 : qm_spec bq3 P_bq3 R_bq3 Bypass 3 [1; 2].
Proof. apply qm_all_sound; [apply gen_queues_det_each|apply gen_queues_keep|vm_cast_no_check (eq_refl true)]. Qed.

