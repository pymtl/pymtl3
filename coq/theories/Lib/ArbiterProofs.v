(* Lib/ArbiterProofs.v — the kill-chain arbiter of Lib/Arbiter.v meets its specification,
   for EVERY number of requesters n (the statements need 0 < n; the property says n >= 2),
   every pointer position and every request vector / request history.  No bound anywhere:
   the kill chain is handled by induction on the chain position, histories by induction.
   On the specification side everything turns on dist, the cyclic distance from the pointer:
   the winner is the requester at the least distance, and fairness is its strict decrease. *)
From PV Require Import Base.Prelude Lib.Arbiter.
Local Open Scope nat_scope.

Lemma mod_wrap a n : 0 < n -> a < 2 * n -> a mod n = if a <? n then a else a - n.
Proof.
  intros Hn Ha. destruct (Nat.ltb_spec a n) as [H|H].
  - apply Nat.mod_small; exact H.
  - symmetry. apply (Nat.mod_unique a n 1 (a - n)); lia.
Qed.

Lemma mod_period a n : 0 < n -> (a + n) mod n = a mod n.
Proof.
  intros Hn. replace (a + n) with (a + 1 * n) by lia. apply Nat.mod_add; lia.
Qed.

(* dist n p is the inverse of k |-> (p + k) mod n on the residues *)

Lemma dist_lt n p i : 0 < n -> dist n p i < n.
Proof. intros; apply Nat.mod_upper_bound; lia. Qed.

Lemma dist_inv n p i : 0 < n -> p < n -> i < n -> (p + dist n p i) mod n = i.
Proof.
  intros Hn Hp Hi. unfold dist. rewrite Nat.add_mod_idemp_r by lia.
  replace (p + (i + n - p)) with (i + n) by lia.
  rewrite mod_period by lia. apply Nat.mod_small; exact Hi.
Qed.

Lemma dist_off n p k : 0 < n -> p < n -> k < n -> dist n p ((p + k) mod n) = k.
Proof.
  intros Hn Hp Hk. unfold dist. rewrite <- Nat.add_sub_assoc by lia.
  rewrite Nat.add_mod_idemp_l by lia.
  replace (p + k + (n - p)) with (k + n) by lia.
  rewrite mod_period by lia. apply Nat.mod_small; exact Hk.
Qed.

Lemma dist_inj n p i j : 0 < n -> p < n -> i < n -> j < n -> dist n p i = dist n p j -> i = j.
Proof.
  intros Hn Hp Hi Hj E. rewrite <- (dist_inv n p i), <- (dist_inv n p j), E by assumption. reflexivity.
Qed.

Lemma dist_eq n p i : p < n -> i < n -> dist n p i = if p <=? i then i - p else n + i - p.
Proof.
  intros Hp Hi. unfold dist. rewrite mod_wrap by lia.
  destruct (Nat.ltb_spec (i + n - p) n), (Nat.leb_spec p i); lia.
Qed.

(* moving the origin m <= dist n p i steps towards i shortens the distance by m *)
Lemma dist_shift n p i m :
  0 < n -> p < n -> i < n -> m <= dist n p i -> dist n ((p + m) mod n) i = dist n p i - m.
Proof.
  intros Hn Hp Hi Hm. pose proof (dist_lt n p i Hn) as Hd.
  rewrite <- (dist_inv n p i Hn Hp Hi) at 1. revert Hm Hd. generalize (dist n p i) as d. intros d Hm Hd.
  replace (p + d) with (p + m + (d - m)) by lia. rewrite <- (Nat.add_mod_idemp_l (p + m)) by lia.
  apply dist_off; [exact Hn|apply Nat.mod_upper_bound; lia|lia].
Qed.

Lemma nth_map_seq (f : bv) a n i :
  nth i (map f (seq a n)) false = if i <? n then f (a + i) else false.
Proof.
  revert a i; induction n as [|n IH]; intros a i; cbn [seq map].
  - destruct i; reflexivity.
  - destruct i as [|i]; cbn [nth].
    + rewrite Nat.add_0_r; reflexivity.
    + rewrite IH. replace (S a + i) with (a + S i) by lia.
      change (S i <? S n) with (i <? n). reflexivity.
Qed.

Lemma nth_to_list n f i : nth i (to_list n f) false = if i <? n then f i else false.
Proof. unfold to_list. rewrite nth_map_seq. reflexivity. Qed.

Lemma to_list_length n f : length (to_list n f) = n.
Proof. unfold to_list. rewrite map_length, seq_length. reflexivity. Qed.

Lemma to_list_ext n f g : (forall i, i < n -> f i = g i) -> to_list n f = to_list n g.
Proof.
  intros H. unfold to_list. apply map_ext_in. intros i Hi. apply in_seq in Hi. apply H; lia.
Qed.

Lemma to_list_of_list n l : length l = n -> to_list n (of_list l) = l.
Proof.
  intros Hl. apply nth_ext with (d := false) (d' := false).
  - rewrite to_list_length; auto.
  - intros i Hi. rewrite to_list_length in Hi. rewrite nth_to_list.
    destruct (Nat.ltb_spec i n); [reflexivity|lia].
Qed.

Lemma nonzero_false n v : nonzero n v = false <-> forall i, i < n -> v i = false.
Proof.
  unfold nonzero. rewrite <- not_true_iff_false, existsb_exists. split.
  - intros H i Hi. destruct (v i) eqn:E; [|reflexivity].
    contradiction H. exists i. split; [apply in_seq; lia|exact E].
  - intros H [i [Hi E]]. apply in_seq in Hi. rewrite H in E by lia. discriminate.
Qed.

Lemma nonzero_true n v : nonzero n v = true <-> exists i, i < n /\ v i = true.
Proof.
  unfold nonzero. rewrite existsb_exists. split; intros [i [Hi E]]; exists i.
  - apply in_seq in Hi. split; [lia|exact E].
  - split; [apply in_seq; lia|exact E].
Qed.

Lemma ptr_state_nth n p i : nth i (ptr_state n p) false = (i <? n) && (i =? p).
Proof. unfold ptr_state. rewrite nth_to_list. destruct (i <? n); reflexivity. Qed.

Lemma onehot_ptr n st : onehot n st <-> exists p, p < n /\ st = ptr_state n p.
Proof.
  split.
  - intros [Hl [p [Hp H]]]. exists p. split; [exact Hp|].
    apply nth_ext with (d := false) (d' := false).
    + unfold ptr_state. rewrite to_list_length. exact Hl.
    + intros i Hi. rewrite ptr_state_nth, H by lia.
      destruct (Nat.ltb_spec i n); [reflexivity|lia].
  - intros [p [Hp ->]]. split; [apply to_list_length|].
    exists p. split; [exact Hp|]. intros i Hi. rewrite ptr_state_nth.
    destruct (Nat.ltb_spec i n); [reflexivity|lia].
Qed.

Lemma ptr_state_inj n p q : p < n -> q < n -> ptr_state n p = ptr_state n q -> p = q.
Proof.
  intros Hp Hq E. assert (nth p (ptr_state n p) false = nth p (ptr_state n q) false) as X by (rewrite E; reflexivity).
  rewrite !ptr_state_nth in X. rewrite Nat.eqb_refl in X.
  destruct (Nat.ltb_spec p n); [|lia]. cbn in X. symmetry in X. apply Nat.eqb_eq in X. exact X.
Qed.

(* anyb f m: some j < m has f j.  is_first f k: k is the least index with f k — what the kill chain computes
   (kills_after, grant_at_offset) and what find_first returns (is_first_find). *)
Fixpoint anyb (f : nat -> bool) (m : nat) : bool :=
  match m with O => false | S m' => anyb f m' || f m' end.

Definition is_first (f : nat -> bool) (k : nat) : bool := f k && negb (anyb f k).

Lemma anyb_false f m : anyb f m = false <-> forall j, j < m -> f j = false.
Proof.
  induction m as [|m IH]; cbn [anyb].
  - split; [intros _ j Hj; lia|reflexivity].
  - rewrite orb_false_iff, IH. split.
    + intros [H1 H2] j Hj. destruct (Nat.eq_dec j m) as [->|]; [exact H2|apply H1; lia].
    + intros H. split; [intros j Hj; apply H; lia|apply H; lia].
Qed.

Lemma is_first_true f k : is_first f k = true <-> f k = true /\ forall j, j < k -> f j = false.
Proof.
  unfold is_first. rewrite andb_true_iff, negb_true_iff, anyb_false. reflexivity.
Qed.

Lemma is_first_ext f g k : (forall j, j <= k -> f j = g j) -> is_first f k = is_first g k.
Proof.
  intros H. unfold is_first. rewrite (H k) by lia. f_equal. f_equal.
  assert (forall m, m <= k -> anyb f m = anyb g m) as X.
  { induction m as [|m IH]; intros Hm; cbn [anyb]; [reflexivity|].
    rewrite IH by lia. rewrite (H m) by lia. reflexivity. }
  apply X; lia.
Qed.

Lemma find_first_spec f m :
  match find_first f m with
  | Some k => k < m /\ f k = true /\ forall j, j < k -> f j = false
  | None => forall j, j < m -> f j = false
  end.
Proof.
  induction m as [|m IH]; cbn [find_first].
  - intros j Hj; lia.
  - destruct (find_first f m) as [k|].
    + destruct IH as [H1 [H2 H3]]. split; [lia|]. split; assumption.
    + destruct (f m) eqn:E.
      * split; [lia|]. split; [exact E|exact IH].
      * intros j Hj. destruct (Nat.eq_dec j m) as [->|]; [exact E|apply IH; lia].
Qed.

(* is_first f is true exactly at the index find_first returns *)
Lemma is_first_find f m k :
  k < m -> is_first f k = match find_first f m with Some k0 => k =? k0 | None => false end.
Proof.
  intros Hk. pose proof (find_first_spec f m) as FS. destruct (find_first f m) as [k0|].
  - destruct FS as [_ [H2 H3]]. destruct (Nat.eqb_spec k k0) as [->|Hne].
    + apply is_first_true. split; assumption.
    + destruct (is_first f k) eqn:E; [|reflexivity]. apply is_first_true in E. destruct E as [E1 E2].
      destruct (Nat.lt_trichotomy k k0) as [H|[H|H]]; [rewrite H3 in E1 by exact H|contradiction|rewrite E2 in H2 by exact H];
        discriminate.
  - unfold is_first. rewrite FS by exact Hk. reflexivity.
Qed.

Lemma is_first_periodic f n k : 0 < n -> (forall j, f (j + n) = f j) -> n <= k -> is_first f k = false.
Proof.
  intros Hn Hper Hk. destruct (is_first f k) eqn:E; [|reflexivity].
  apply is_first_true in E. destruct E as [E1 E2].
  replace k with (k - n + n) in E1 by lia. rewrite Hper, E2 in E1 by lia. discriminate.
Qed.

(* The kill chain for a priority vector P that is the indicator of position p (R = the doubled requests). *)

(* up to the priority position every kill bit is 1 *)
Lemma kills_before P R p i : (forall j, P j = (j =? p)) -> i <= p -> comb_kills P R i = true.
Proof.
  intros HP. induction i as [|i IH]; intros Hi; cbn [comb_kills]; [reflexivity|].
  rewrite HP, IH by lia. destruct (Nat.eqb_spec i p); [lia|reflexivity].
Qed.

(* after it, kills[p+1+d] = "some request among positions p .. p+d" *)
Lemma kills_after P R p d :
  (forall j, P j = (j =? p)) -> comb_kills P R (p + 1 + d) = anyb (fun k => R (p + k)) (S d).
Proof.
  intros HP. induction d as [|d IH].
  - rewrite Nat.add_0_r, Nat.add_1_r. cbn [comb_kills anyb]. rewrite HP, Nat.eqb_refl, Nat.add_0_r. reflexivity.
  - rewrite Nat.add_succ_r. cbn [comb_kills]. rewrite HP, IH. cbn [anyb].
    destruct (Nat.eqb_spec (p + 1 + d) p); [lia|]. replace (p + 1 + d) with (p + S d) by lia.
    destruct (anyb (fun k => R (p + k)) d || R (p + d)); reflexivity.
Qed.

(* so the grant bit d positions after p is set exactly at the first request from p on *)
Lemma grant_at_offset P R p d :
  (forall j, P j = (j =? p)) ->
  (if P (p + d) then R (p + d) else negb (comb_kills P R (p + d)) && R (p + d)) = is_first (fun k => R (p + k)) d.
Proof.
  intros HP. rewrite HP. unfold is_first. destruct d as [|d].
  - rewrite Nat.add_0_r, Nat.eqb_refl. cbn [anyb negb]. rewrite andb_true_r. reflexivity.
  - destruct (Nat.eqb_spec (p + S d) p); [lia|]. replace (p + S d) with (p + 1 + d) at 1 by lia.
    rewrite kills_after by exact HP. apply andb_comm.
Qed.

Lemma prio_int_ptr n p j : p < n -> comb_priority_int n (of_list (ptr_state n p)) j = (j =? p).
Proof.
  intros Hp. unfold comb_priority_int, of_list. rewrite ptr_state_nth.
  destruct (Nat.ltb_spec j n); cbn; [reflexivity|].
  symmetry. apply Nat.eqb_neq. lia.
Qed.

Lemma reqs_int_mod n reqs j : 0 < n -> j < 2 * n -> comb_reqs_int n reqs j = reqs (j mod n).
Proof.
  intros Hn Hj. unfold comb_reqs_int. rewrite mod_wrap by lia.
  destruct (Nat.ltb_spec j n); [reflexivity|].
  destruct (Nat.ltb_spec j (2 * n)); [reflexivity|lia].
Qed.

(* grants_int is one-hot at the first requesting position at or after p in the doubled vector *)
Lemma grants_int_first n reqs p i :
  0 < n -> p < n -> i < 2 * n ->
  let P := comb_priority_int n (of_list (ptr_state n p)) in
  let R := comb_reqs_int n reqs in
  comb_grants_int n P R (comb_kills P R) i
  = (p <=? i) && is_first (fun k => reqs ((p + k) mod n)) (i - p).
Proof.
  intros Hn Hp Hi P R. unfold comb_grants_int.
  destruct (Nat.ltb_spec i (2 * n)); [|lia].
  assert (forall j, P j = (j =? p)) as HP by (intros; apply prio_int_ptr; exact Hp).
  destruct (Nat.leb_spec p i) as [Hle|Hlt]; cbn [andb].
  - rewrite (is_first_ext _ (fun k => R (p + k))) by (intros j Hj; unfold R; rewrite reqs_int_mod by lia; reflexivity).
    rewrite <- (grant_at_offset P R p (i - p) HP). replace (p + (i - p)) with i by lia. reflexivity.
  - rewrite HP, kills_before with (p := p) by (exact HP || lia).
    destruct (Nat.eqb_spec i p); [lia|reflexivity].
Qed.

Lemma spec_grants_out n reqs p i : 0 < n -> n <= i -> spec_grants n reqs p i = false.
Proof.
  intros Hn Hi. unfold spec_grants, spec_grant_index.
  destruct (find_first _ n) as [k|]; cbn [option_map]; [|reflexivity].
  apply Nat.eqb_neq. pose proof (Nat.mod_upper_bound (p + k) n). lia.
Qed.

(* THE combinational theorem: with a one-hot priority register pointing at p, the doubled-vector
   kill chain grants exactly the first requester at or after p, cyclically — for every n. *)
Theorem grants_spec n reqs p i :
  0 < n -> p < n -> grants_of n reqs (ptr_state n p) i = spec_grants n reqs p i.
Proof.
  intros Hn Hp. unfold grants_of, comb_grants.
  destruct (Nat.ltb_spec i n) as [Hi|Hi]; [|symmetry; apply spec_grants_out; assumption].
  rewrite !grants_int_first by lia.
  set (f := fun k => reqs ((p + k) mod n)).
  assert (forall k, f (k + n) = f k) as Hper.
  { intros k. unfold f. rewrite Nat.add_assoc, mod_period by lia. reflexivity. }
  (* of the two copies i and n + i of input i, the one inside the window p .. p + n - 1 sits
     at offset dist n p i from p; the other is at or beyond the period *)
  transitivity (is_first f (dist n p i)).
  { rewrite dist_eq by assumption. destruct (Nat.leb_spec p i).
    - rewrite (is_first_periodic f n (n + i - p)) by (assumption || lia).
      rewrite andb_false_r. apply orb_false_r.
    - destruct (Nat.leb_spec p (n + i)); [reflexivity|lia]. }
  rewrite (is_first_find f n) by (apply dist_lt; exact Hn).
  unfold spec_grants, spec_grant_index. fold f.
  pose proof (find_first_spec f n) as FS.
  destruct (find_first f n) as [k0|]; cbn [option_map]; [|reflexivity]. destruct FS as [Hk0 _].
  destruct (Nat.eqb_spec (dist n p i) k0) as [<-|Hne].
  - rewrite dist_inv by assumption. symmetry. apply Nat.eqb_refl.
  - symmetry. apply Nat.eqb_neq. intros ->. apply Hne, dist_off; assumption.
Qed.

(* the winner requests and is, among the requesters, the nearest one at or after the pointer *)
Lemma spec_index_some n reqs p g :
  0 < n -> p < n -> spec_grant_index n reqs p = Some g ->
  g < n /\ reqs g = true /\ forall i, i < n -> reqs i = true -> dist n p g <= dist n p i.
Proof.
  intros Hn Hp. unfold spec_grant_index.
  pose proof (find_first_spec (fun k => reqs ((p + k) mod n)) n) as FS.
  destruct (find_first _ n) as [k|]; cbn [option_map]; [|discriminate].
  intros E; injection E as <-. destruct FS as [H1 [H2 H3]].
  split; [apply Nat.mod_upper_bound; lia|]. split; [exact H2|].
  intros i Hi Hr. rewrite dist_off by assumption.
  destruct (Nat.le_gt_cases k (dist n p i)) as [|Hlt]; [assumption|].
  apply H3 in Hlt. rewrite dist_inv in Hlt by assumption. congruence.
Qed.

Lemma spec_index_none n reqs p :
  0 < n -> p < n -> spec_grant_index n reqs p = None -> forall i, i < n -> reqs i = false.
Proof.
  intros Hn Hp. unfold spec_grant_index.
  pose proof (find_first_spec (fun k => reqs ((p + k) mod n)) n) as FS.
  destruct (find_first _ n) as [k|]; cbn [option_map]; [discriminate|].
  intros _ i Hi. rewrite <- (dist_inv n p i) by assumption. apply FS, dist_lt, Hn.
Qed.

Lemma spec_grants_true n reqs p i : spec_grants n reqs p i = true <-> spec_grant_index n reqs p = Some i.
Proof.
  unfold spec_grants. destruct (spec_grant_index n reqs p) as [g|]; [|split; discriminate].
  rewrite Nat.eqb_eq. split; congruence.
Qed.

(* grants is zero exactly when nothing is requested *)
Theorem grants_zero_iff n reqs p :
  0 < n -> p < n ->
  ((forall i, grants_of n reqs (ptr_state n p) i = false) <-> (forall i, i < n -> reqs i = false)).
Proof.
  intros Hn Hp. split.
  - intros H. destruct (spec_grant_index n reqs p) as [g|] eqn:E.
    + apply spec_grants_true in E. rewrite <- grants_spec, H in E by assumption. discriminate.
    + apply spec_index_none with (p := p); assumption.
  - intros H i. rewrite grants_spec by assumption.
    destruct (spec_grants n reqs p i) eqn:E; [|reflexivity].
    apply spec_grants_true, spec_index_some in E; try assumption. destruct E as [Hi [Hr _]].
    rewrite H in Hr by exact Hi. discriminate.
Qed.

(* otherwise exactly one bit is set, and it is a requesting bit *)
Theorem grants_one_hot n reqs p :
  0 < n -> p < n -> (exists i, i < n /\ reqs i = true) ->
  exists g, g < n /\ reqs g = true /\ spec_grant_index n reqs p = Some g /\
            forall i, grants_of n reqs (ptr_state n p) i = (i =? g).
Proof.
  intros Hn Hp [i0 [Hi0 Hr0]].
  destruct (spec_grant_index n reqs p) as [g|] eqn:E.
  - pose proof (spec_index_some n reqs p g Hn Hp E) as [Hg [Hr _]].
    exists g. split; [exact Hg|]. split; [exact Hr|]. split; [reflexivity|].
    intros i. rewrite grants_spec by assumption. unfold spec_grants. rewrite E. reflexivity.
  - rewrite (spec_index_none n reqs p Hn Hp E i0 Hi0) in Hr0. discriminate.
Qed.

(* at most one bit, always inside reqs, never outside the n-bit range (no hypothesis on reqs) *)
Theorem grants_subset_reqs n reqs p i :
  0 < n -> p < n -> grants_of n reqs (ptr_state n p) i = true -> i < n /\ reqs i = true.
Proof.
  intros Hn Hp H. rewrite grants_spec, spec_grants_true in H by assumption.
  apply spec_index_some in H; try assumption. destruct H as [Hi [Hr _]]. split; assumption.
Qed.

Theorem grants_at_most_one n reqs p i j :
  0 < n -> p < n ->
  grants_of n reqs (ptr_state n p) i = true -> grants_of n reqs (ptr_state n p) j = true -> i = j.
Proof.
  intros Hn Hp Hi Hj. rewrite grants_spec, spec_grants_true in Hi, Hj by assumption. congruence.
Qed.

(* the connect() wiring of the register input is a rotate-left by one of grants *)
Lemma reg_in_rotl_list n v : 0 < n -> to_list n (reg_in n v) = to_list n (rotl n v).
Proof.
  intros Hn. apply to_list_ext. intros i Hi. unfold reg_in, rotl. destruct (Nat.ltb_spec i n); [|lia].
  rewrite mod_wrap by lia. destruct (Nat.eqb_spec i 0) as [->|].
  - destruct (Nat.ltb_spec (0 + n - 1) n); f_equal; lia.
  - destruct (Nat.ltb_spec (i + n - 1) n); [lia|]. f_equal; lia.
Qed.

Lemma rotl_onehot n g : 0 < n -> g < n ->
  to_list n (rotl n (fun i => i =? g)) = ptr_state n ((g + 1) mod n).
Proof.
  intros Hn Hg. unfold ptr_state. apply to_list_ext. intros i Hi. unfold rotl.
  destruct (Nat.ltb_spec i n); [|lia].
  (* predecessor and successor mod n are inverse to each other *)
  destruct (Nat.eqb_spec ((i + n - 1) mod n) g) as [<-|Hne]; symmetry.
  - rewrite Nat.add_mod_idemp_l by lia. replace (i + n - 1 + 1) with (i + n) by lia.
    rewrite mod_period, Nat.mod_small by lia. apply Nat.eqb_refl.
  - apply Nat.eqb_neq. intros ->. apply Hne. rewrite <- Nat.add_sub_assoc, Nat.add_mod_idemp_l by lia.
    replace (g + 1 + (n - 1)) with (g + n) by lia. rewrite mod_period by lia. apply Nat.mod_small, Hg.
Qed.

Lemma grants_list_spec n reqs p :
  0 < n -> p < n ->
  to_list n (grants_of n reqs (ptr_state n p)) = to_list n (spec_grants n reqs p).
Proof. intros Hn Hp. apply to_list_ext. intros i _. apply grants_spec; assumption. Qed.

(* read back from the list, the specification's grant vector is itself: it is zero from n on *)
Lemma nth_spec_grants n reqs p i :
  0 < n -> nth i (to_list n (spec_grants n reqs p)) false = spec_grants n reqs p i.
Proof.
  intros Hn. rewrite nth_to_list. destruct (Nat.ltb_spec i n); [reflexivity|].
  symmetry. apply spec_grants_out; assumption.
Qed.

Lemma nonzero_spec n reqs p :
  0 < n -> p < n ->
  nonzero n (of_list (to_list n (spec_grants n reqs p)))
  = match spec_grant_index n reqs p with Some _ => true | None => false end.
Proof.
  intros Hn Hp. destruct (spec_grant_index n reqs p) as [g|] eqn:E.
  - apply nonzero_true. pose proof (spec_index_some n reqs p g Hn Hp E) as [Hg _].
    exists g. split; [exact Hg|]. unfold of_list. rewrite nth_spec_grants by exact Hn. apply spec_grants_true, E.
  - apply nonzero_false. intros i Hi. unfold of_list. rewrite nth_spec_grants by exact Hn.
    unfold spec_grants. rewrite E. reflexivity.
Qed.

Lemma priority_en_advances n (isEn : bool) g c :
  (if isEn then comb_priority_en_En n g (c_en c) else comb_priority_en n g) = nonzero n g && advances isEn c.
Proof.
  unfold comb_priority_en_En, comb_priority_en, advances.
  destruct isEn; cbn [negb orb]; [reflexivity|symmetry; apply andb_true_r].
Qed.

(* one cycle of the code's machine = one cycle of the pointer specification *)
Theorem step_refines n isEn p c :
  0 < n -> p < n ->
  step n isEn (ptr_state n p) c
  = (to_list n (spec_grants n (c_reqs c) p), ptr_state n (spec_next_ptr n isEn p c)).
Proof.
  intros Hn Hp. unfold step. rewrite grants_list_spec by assumption. f_equal.
  unfold reg_next, spec_next_ptr. destruct (c_rst c); [reflexivity|].
  rewrite priority_en_advances, nonzero_spec by assumption.
  destruct (spec_grant_index n (c_reqs c) p) as [g|] eqn:E; [|reflexivity].
  destruct (advances isEn c); [|reflexivity]. cbn [andb].
  pose proof (spec_index_some n (c_reqs c) p g Hn Hp E) as [Hg _].
  rewrite reg_in_rotl_list, <- rotl_onehot by assumption. apply to_list_ext. intros i Hi.
  unfold rotl, of_list. rewrite nth_spec_grants by exact Hn. unfold spec_grants. rewrite E. reflexivity.
Qed.

Lemma spec_next_ptr_lt n isEn p c : 0 < n -> p < n -> spec_next_ptr n isEn p c < n.
Proof.
  intros Hn Hp. unfold spec_next_ptr.
  destruct (c_rst c); [lia|]. destruct (spec_grant_index n (c_reqs c) p); [|exact Hp].
  destruct (advances isEn c); [apply Nat.mod_upper_bound; lia|exact Hp].
Qed.

(* whole histories: the code's machine started with the pointer at p produces the specification's trace *)
Theorem run_refines n isEn h : forall p,
  0 < n -> p < n -> run n isEn (ptr_state n p) h = spec_run n isEn p h.
Proof.
  induction h as [|c h IH]; intros p Hn Hp; cbn [run spec_run]; [reflexivity|].
  rewrite step_refines by assumption. cbn [fst snd]. f_equal.
  apply IH; [exact Hn|apply spec_next_ptr_lt; assumption].
Qed.

(* reset establishes it, from ANY register content (also from the all-zero content of a cold simulator) *)
Theorem reset_establishes n isEn st c :
  0 < n -> c_rst c = true ->
  snd (step n isEn st c) = reset_state n /\ onehot n (reset_state n) /\ reset_state n = ptr_state n 0.
Proof.
  intros Hn Hr. split; [|split; [|reflexivity]].
  - unfold step, reg_next. cbn [snd]. rewrite Hr. reflexivity.
  - apply onehot_ptr. exists 0. split; [exact Hn|reflexivity].
Qed.

Theorem step_preserves_onehot n isEn st c :
  0 < n -> onehot n st -> onehot n (snd (step n isEn st c)).
Proof.
  intros Hn H. apply onehot_ptr in H. destruct H as [p [Hp ->]].
  rewrite step_refines by assumption. cbn [snd]. apply onehot_ptr.
  exists (spec_next_ptr n isEn p c). split; [apply spec_next_ptr_lt; assumption|reflexivity].
Qed.

Theorem run_preserves_onehot n isEn h : forall st,
  0 < n -> onehot n st -> onehot n (final_state n isEn st h).
Proof.
  induction h as [|c h IH]; intros st Hn H; cbn [final_state]; [exact H|].
  apply IH; [exact Hn|]. apply step_preserves_onehot; assumption.
Qed.

(* next priority = rotate-left of grants when it advances, unchanged otherwise; En: advances only with en *)
Theorem next_priority n isEn st c :
  0 < n -> c_rst c = false ->
  let g := fst (step n isEn st c) in
  let st' := snd (step n isEn st c) in
  if nonzero n (of_list g) && advances isEn c
  then st' = to_list n (rotl n (of_list g))
  else st' = st.
Proof.
  intros Hn Hr. cbv zeta. unfold step. cbn [fst snd]. unfold reg_next. rewrite Hr, priority_en_advances.
  destruct (nonzero n _ && advances isEn c); [apply reg_in_rotl_list; exact Hn|reflexivity].
Qed.

(* the same at the level of the pointer: it moves to the position after the granted input *)
Theorem next_pointer n isEn p c g :
  0 < n -> p < n -> c_rst c = false -> spec_grant_index n (c_reqs c) p = Some g ->
  snd (step n isEn (ptr_state n p) c) = ptr_state n (if advances isEn c then (g + 1) mod n else p).
Proof.
  intros Hn Hp Hr E. rewrite step_refines by assumption. cbn [snd].
  unfold spec_next_ptr. rewrite Hr, E. destruct (advances isEn c); reflexivity.
Qed.

Theorem no_grant_keeps_priority n isEn st c :
  0 < n -> onehot n st -> c_rst c = false -> (forall i, i < n -> c_reqs c i = false) ->
  snd (step n isEn st c) = st.
Proof.
  intros Hn H Hr Hz. apply onehot_ptr in H. destruct H as [p [Hp ->]].
  rewrite step_refines by assumption. cbn [snd]. unfold spec_next_ptr. rewrite Hr.
  destruct (spec_grant_index n (c_reqs c) p) as [g|] eqn:E; [|reflexivity].
  pose proof (spec_index_some n (c_reqs c) p g Hn Hp E) as [Hg [Hrg _]].
  rewrite Hz in Hrg by exact Hg. discriminate.
Qed.

(* RoundRobinArbiterEn: with en low the priority register keeps its value (any content, any reqs) *)
Theorem en_low_keeps_priority n st c :
  c_rst c = false -> c_en c = false -> snd (step n true st c) = st.
Proof.
  intros Hr He. unfold step, reg_next, comb_priority_en_En. cbn [snd].
  rewrite Hr, He, andb_false_r. reflexivity.
Qed.

(* hence a cycle with the enable low is invisible to every later cycle *)
Lemma en_low_invisible n st c h :
  c_rst c = false -> c_en c = false ->
  run n true (snd (step n true st c)) h = run n true st h.
Proof. intros Hr He. rewrite (en_low_keeps_priority n st c Hr He). reflexivity. Qed.

(* RoundRobinArbiter has no enable: it is RoundRobinArbiterEn with en tied high *)
Theorem plain_is_en_high n st rst en reqs :
  step n false st (rst, en, reqs) = step n true st (rst, true, reqs).
Proof.
  unfold step, comb_priority_en_En, comb_priority_en. cbn [c_rst c_en c_reqs fst snd].
  rewrite andb_true_r. reflexivity.
Qed.

(* the decreasing measure: in a cycle (no reset) in which input i requests, either i is granted, or —
   when the priority advances — the cyclic distance from the pointer to i strictly decreases;
   when it does not advance the pointer stays *)
Lemma fair_measure n isEn p c i :
  0 < n -> p < n -> i < n -> c_rst c = false -> c_reqs c i = true ->
  let p' := spec_next_ptr n isEn p c in
  spec_grants n (c_reqs c) p i = true \/
  (spec_grants n (c_reqs c) p i = false /\
   if advances isEn c then dist n p' i < dist n p i else p' = p).
Proof.
  intros Hn Hp Hi Hr Hq. cbv zeta. unfold spec_next_ptr, spec_grants. rewrite Hr.
  destruct (spec_grant_index n (c_reqs c) p) as [g|] eqn:E.
  2:{ rewrite (spec_index_none n (c_reqs c) p Hn Hp E i Hi) in Hq. discriminate. }
  destruct (Nat.eqb_spec i g) as [->|Hne]; [left; reflexivity|right].
  split; [reflexivity|]. destruct (advances isEn c); [|reflexivity].
  pose proof (spec_index_some n (c_reqs c) p g Hn Hp E) as [Hg [_ Hmin]].
  (* g is the nearest requester and i another one, so g is strictly nearer; the new pointer
     g + 1 is dist n p g + 1 steps from p towards i *)
  assert (dist n p g < dist n p i) as Hlt.
  { specialize (Hmin i Hi Hq). apply Nat.le_neq. split; [exact Hmin|].
    intros Heq. apply Hne. symmetry. apply (dist_inj n p); assumption. }
  rewrite <- (dist_inv n p g Hn Hp Hg) at 1.
  rewrite Nat.add_mod_idemp_l, <- Nat.add_assoc, dist_shift by lia. lia.
Qed.

(* a grant within b advancing cycles after the first cycle is one within b (+ 1 if the first advances) *)
Lemma granted_within_later n isEn st c h i b b' :
  granted_within n isEn (snd (step n isEn st c)) h i b ->
  (if advances isEn c then 1 else 0) + b <= b' ->
  granted_within n isEn st (c :: h) i b'.
Proof.
  intros [t [c' [g [H1 [H2 [H3 [H4 H5]]]]]]] Hb. exists (S t), c', g. cbn [nth_error run].
  split; [exact H1|]. split; [exact H2|]. split; [exact H3|]. split; [exact H4|].
  change (firstn (S (S t)) (c :: h)) with (c :: firstn (S t) h). cbn [count_adv]. lia.
Qed.

Lemma fairness_ptr n isEn i h : forall p,
  0 < n -> p < n -> i < n -> keeps_requesting i h ->
  dist n p i < count_adv isEn h ->
  granted_within n isEn (ptr_state n p) h i (dist n p i + 1).
Proof.
  induction h as [|c h IH]; intros p Hn Hp Hi Hk Hc; cbn [count_adv] in Hc; [lia|].
  assert (c_rst c = false /\ c_reqs c i = true) as [Hr Hq] by (apply Hk; left; reflexivity).
  assert (keeps_requesting i h) as Hk' by (intros c' Hc'; apply Hk; right; exact Hc').
  pose proof (fair_measure n isEn p c i Hn Hp Hi Hr Hq) as FM. cbv zeta in FM.
  pose proof (spec_next_ptr_lt n isEn p c Hn Hp) as Hp'.
  pose proof (step_refines n isEn p c Hn Hp) as Hs.
  destruct (advances isEn c) eqn:Ea; [destruct FM as [G|[_ D]]|].
  - (* granted now, in an advancing cycle *)
    exists 0, c, (to_list n (spec_grants n (c_reqs c) p)). cbn [nth_error firstn count_adv run].
    rewrite Hs, Ea. split; [reflexivity|]. split; [reflexivity|]. split; [reflexivity|].
    split; [|lia]. rewrite nth_spec_grants by exact Hn. exact G.
  - (* not granted, the distance shrinks *)
    apply granted_within_later with (b := dist n (spec_next_ptr n isEn p c) i + 1); [|rewrite Ea; lia].
    rewrite Hs. apply IH; [assumption..|lia].
  - (* priority does not advance: same pointer, same distance, one cycle consumed *)
    assert (spec_next_ptr n isEn p c = p) as Hsame.
    { unfold spec_next_ptr. rewrite Hr, Ea. destruct (spec_grant_index n (c_reqs c) p); reflexivity. }
    apply granted_within_later with (b := dist n p i + 1); [|rewrite Ea; lia].
    rewrite Hs, Hsame. apply IH; [assumption..|lia].
Qed.

(* FAIRNESS, both variants: from any one-hot priority, an input that requests in every cycle of a
   reset-free history containing at least n priority-advancing ("granting") cycles is granted in one of
   the first n of them.  For RoundRobinArbiter every such cycle advances; for RoundRobinArbiterEn the
   advancing cycles are those with en high. *)
Theorem fairness n isEn st h i :
  0 < n -> onehot n st -> i < n -> keeps_requesting i h ->
  n <= count_adv isEn h ->
  granted_within n isEn st h i n.
Proof.
  intros Hn H Hi Hk Hc. apply onehot_ptr in H. destruct H as [p [Hp ->]].
  pose proof (dist_lt n p i Hn) as Hd.
  destruct (fairness_ptr n isEn i h p Hn Hp Hi Hk) as [t [c [g [H1 [H2 [H3 [H4 H5]]]]]]]; [lia|].
  exists t, c, g. repeat (split; [assumption|]). lia.
Qed.

Lemma count_adv_plain h : count_adv false h = length h.
Proof. induction h as [|c h IH]; cbn [count_adv length advances negb orb]; [reflexivity|]. rewrite IH. reflexivity. Qed.

(* RoundRobinArbiter: a continuously requesting input is granted within n cycles *)
Theorem fairness_plain n st h i :
  0 < n -> onehot n st -> i < n -> keeps_requesting i h -> n <= length h ->
  exists t g, t < n /\ nth_error (run n false st h) t = Some g /\ nth i g false = true.
Proof.
  intros Hn H Hi Hk Hl.
  destruct (fairness n false st h i Hn H Hi Hk) as [t [c [g [H1 [H2 [H3 [H4 H5]]]]]]].
  { rewrite count_adv_plain. exact Hl. }
  exists t, g. split; [|split; assumption].
  rewrite count_adv_plain in H5. rewrite firstn_length in H5.
  assert (t < length h) by (apply nth_error_Some; congruence). lia.
Qed.

Lemma run_nth n isEn h : forall p t c,
  0 < n -> p < n -> nth_error h t = Some c ->
  exists q, q < n /\ final_state n isEn (ptr_state n p) (firstn t h) = ptr_state n q /\
            nth_error (run n isEn (ptr_state n p) h) t = Some (to_list n (spec_grants n (c_reqs c) q)).
Proof.
  induction h as [|c0 h IH]; intros p t c Hn Hp Ht; [destruct t; discriminate|].
  destruct t as [|t]; cbn [nth_error] in Ht.
  - injection Ht as ->. exists p. split; [exact Hp|]. split; [reflexivity|].
    cbn [run nth_error]. rewrite step_refines by assumption. reflexivity.
  - cbn [firstn final_state run nth_error]. rewrite step_refines by assumption. cbn [snd].
    apply IH; [exact Hn|apply spec_next_ptr_lt; assumption|exact Ht].
Qed.

(* In every cycle t of every history (resets and enable toggling included) started from a one-hot
   priority: the grant vector has n bits; it is zero when nothing is requested; otherwise exactly one
   bit is set and it is a requesting input — namely the first requester at or after the current pointer. *)
Theorem every_cycle n isEn st h t c :
  0 < n -> onehot n st -> nth_error h t = Some c ->
  exists g q, nth_error (run n isEn st h) t = Some g /\ length g = n /\
    q < n /\ final_state n isEn st (firstn t h) = ptr_state n q /\
    g = to_list n (spec_grants n (c_reqs c) q) /\
    ((forall i, i < n -> c_reqs c i = false) -> forall i, nth i g false = false) /\
    ((exists i, i < n /\ c_reqs c i = true) ->
       exists w, w < n /\ c_reqs c w = true /\ spec_grant_index n (c_reqs c) q = Some w /\
                 forall i, nth i g false = (i =? w)).
Proof.
  intros Hn H Ht. apply onehot_ptr in H. destruct H as [p [Hp ->]].
  destruct (run_nth n isEn h p t c Hn Hp Ht) as [q [Hq [Hf Hg]]].
  exists (to_list n (spec_grants n (c_reqs c) q)), q.
  split; [exact Hg|]. split; [apply to_list_length|]. split; [exact Hq|]. split; [exact Hf|].
  split; [reflexivity|]. split.
  - intros Hz i. rewrite nth_spec_grants, <- grants_spec by assumption.
    apply (proj2 (grants_zero_iff n (c_reqs c) q Hn Hq)). exact Hz.
  - intros Hex. destruct (grants_one_hot n (c_reqs c) q Hn Hq Hex) as [w [Hw [Hr [Hs Hall]]]].
    exists w. split; [exact Hw|]. split; [exact Hr|]. split; [exact Hs|]. intros i.
    rewrite nth_spec_grants, <- grants_spec by assumption. apply Hall.
Qed.

(* the input granted last has the LEAST priority afterwards: with the pointer just past input i, i is
   granted only when no other input requests *)
Lemma last_granted_least_priority n reqs i j :
  0 < n -> i < n -> j < n -> j <> i -> reqs j = true ->
  spec_grants n reqs ((i + 1) mod n) i = false.
Proof.
  intros Hn Hi Hj Hne Hr. destruct (spec_grants n reqs ((i + 1) mod n) i) eqn:E; [|reflexivity].
  assert (Hp : (i + 1) mod n < n) by (apply Nat.mod_upper_bound; lia).
  apply spec_grants_true, spec_index_some in E; [|exact Hn|exact Hp]. destruct E as [_ [_ Hmin]].
  (* i is the farthest input from the pointer, at distance n - 1; j is no farther, so j = i *)
  assert (dist n ((i + 1) mod n) i = n - 1) as Hd.
  { rewrite <- (dist_off n ((i + 1) mod n) (n - 1)) by lia. f_equal.
    rewrite Nat.add_mod_idemp_l by lia. replace (i + 1 + (n - 1)) with (i + n) by lia.
    rewrite mod_period by lia. symmetry. apply Nat.mod_small; exact Hi. }
  specialize (Hmin j Hj Hr). pose proof (dist_lt n ((i + 1) mod n) j Hn) as Hlt.
  contradiction Hne. apply (dist_inj n ((i + 1) mod n)); [assumption..|].
  revert Hd Hmin Hlt. generalize (dist n ((i + 1) mod n)). intros d Hd Hmin Hlt. lia.
Qed.

(* model level: right after an advancing cycle in which input g was granted, g is granted again in the
   next cycle only if it is the sole requester *)
Theorem no_back_to_back_grant n isEn p c c' g j :
  0 < n -> p < n -> c_rst c = false -> advances isEn c = true ->
  spec_grant_index n (c_reqs c) p = Some g ->
  j < n -> j <> g -> c_reqs c' j = true ->
  nth g (fst (step n isEn (snd (step n isEn (ptr_state n p) c)) c')) false = false.
Proof.
  intros Hn Hp Hr Ha E Hj Hne Hreq.
  pose proof (spec_index_some n (c_reqs c) p g Hn Hp E) as [Hg _].
  rewrite (next_pointer n isEn p c g Hn Hp Hr E), Ha.
  rewrite step_refines by (try apply Nat.mod_upper_bound; lia). cbn [fst].
  rewrite nth_spec_grants by exact Hn. apply (last_granted_least_priority n (c_reqs c') g j); assumption.
Qed.

Lemma zlist_eqb_eq a : forall b, zlist_eqb a b = true <-> a = b.
Proof.
  induction a as [|x a IH]; intros [|y b]; cbn [zlist_eqb]; try (split; [discriminate|discriminate]).
  - split; reflexivity.
  - rewrite andb_true_iff, Z.eqb_eq, IH. split; [intros [-> ->]; reflexivity|intros E; injection E; auto].
Qed.

(* what a passing correspondence case means: the observed integers are the specification's trace *)
Theorem replay_ok_sound isEn n h obs :
  0 < n -> replay_ok (isEn, false, n, h, obs) = true ->
  obs = map Z_of_list (spec_run n isEn 0 (map cyc_of_z h)).
Proof.
  intros Hn H. unfold replay_ok, replay in H. apply zlist_eqb_eq in H. subst obs.
  unfold reset_state. rewrite run_refines by lia. reflexivity.
Qed.
