(* Lib/MemProofs.v — proofs about Lib/Mem.v (bytes, AMOs, one request, lists of requests, the history acceptor)
   and Lib/MemPipe.v (delay pipes, the per-port pipelines under an arbitrary oracle).
   Two notions carry the file.  `wf m` (every cell holds a byte) is needed exactly where a value that was read is bounded
   or taken apart into bytes (read_n_range, read_n_byte and what rests on them); writes never need it.  `Inv` says, for
   each port, that its request stream is  serviced ++ in the request pipe ++ not yet accepted  and that the
   specification's responses to the serviced requests are  delivered ++ in the response pipe;  every action moves one
   element across one `++`, and that is the whole proof of inv_step. *)
From PV Require Import Base.Prelude Bits.BitsLemmas Lib.Mem Lib.MemPipe.
Open Scope Z_scope.

(* bytes: write_n_get says what every cell holds after a write; read_n is little endian (read_n_byte) and bounded
   (read_n_range); the read-after-write laws follow from these *)
Definition wf (m : mem) : Prop := forall a, 0 <= m a < 256.

Lemma wf_mem0 : wf mem0.
Proof. intro a; unfold mem0; lia. Qed.

Lemma upd_same m a v : upd m a v a = v.
Proof. unfold upd. rewrite Z.eqb_refl. reflexivity. Qed.
Lemma upd_other m a v x : x <> a -> upd m a v x = m x.
Proof. intros H. unfold upd. destruct (Z.eqb_spec x a); [contradiction|reflexivity]. Qed.
Lemma upd_wf m a v : wf m -> 0 <= v < 256 -> wf (upd m a v).
Proof. intros H Hv x. unfold upd. destruct (x =? a); auto. Qed.

Lemma mem_of_list_wf l m : wf m -> Forall (fun ab => 0 <= snd ab < 256) l -> wf (mem_of_list l m).
Proof.
  revert m; induction l as [|[a b] t IH]; intros m Hm Hl; cbn; [assumption|].
  inversion Hl; subst. apply IH; [apply upd_wf; assumption|assumption].
Qed.

Lemma pow256 z : 0 <= z -> 256 ^ z = 2 ^ (8 * z).
Proof. intros. rewrite Z.pow_mul_r by lia. reflexivity. Qed.
Lemma pow256_pos z : 0 <= z -> 0 < 256 ^ z.
Proof. intros. apply Z.pow_pos_nonneg; lia. Qed.
Lemma pow256_succ z : 0 <= z -> 256 ^ (z + 1) = 256 * 256 ^ z.
Proof. intros. rewrite Z.pow_add_r by lia. lia. Qed.

Lemma byte_k_0 v : byte_k v 0 = v mod 256.
Proof. unfold byte_k. rewrite Z.pow_0_r, Z.div_1_r. reflexivity. Qed.
Lemma byte_k_succ v k : 0 <= k -> byte_k v (k + 1) = byte_k (v / 256) k.
Proof.
  intros. unfold byte_k. rewrite pow256_succ by assumption.
  rewrite Z.div_div by (try apply pow256_pos; lia). reflexivity.
Qed.
Lemma byte_k_range v k : 0 <= byte_k v k < 256.
Proof. unfold byte_k. apply Z.mod_pos_bound. lia. Qed.

(* the test "x is one of the n bytes at a", as write_n_get, writes_at and stores spell it
   (lia decides boolean comparisons: ZifyBool is loaded by Prelude) *)
Lemma in_range_true a n x : a <= x < a + n -> (a <=? x) && (x <? a + n) = true.
Proof. lia. Qed.
Lemma in_range_false a n x : x < a \/ a + n <= x -> (a <=? x) && (x <? a + n) = false.
Proof. lia. Qed.
Lemma in_range_succ a k x :
  (a <=? x) && (x <? a + Z.of_nat (S k)) = (x =? a) || ((a + 1 <=? x) && (x <? a + 1 + Z.of_nat k)).
Proof. lia. Qed.

Lemma write_n_get n : forall m a d x,
  write_n m a n d x = if (a <=? x) && (x <? a + Z.of_nat n) then byte_k d (x - a) else m x.
Proof.
  induction n as [|k IH]; intros m a d x; cbn [write_n]; [rewrite in_range_false by lia; reflexivity|].
  rewrite IH, in_range_succ. unfold upd. destruct (Z.eqb_spec x a) as [->|Hne]; cbn [orb].
  - rewrite in_range_false, Z.sub_diag, byte_k_0 by lia. reflexivity.
  - destruct ((a + 1 <=? x) && (x <? a + 1 + Z.of_nat k)) eqn:E; [|reflexivity].
    replace (x - a) with (x - (a + 1) + 1) by ring. rewrite byte_k_succ by lia. reflexivity.
Qed.

Theorem write_frame m a n d x : x < a \/ a + Z.of_nat n <= x -> write_n m a n d x = m x.
Proof. intros H. rewrite write_n_get, in_range_false by exact H. reflexivity. Qed.

Lemma write_n_inside m a n d x : a <= x < a + Z.of_nat n -> write_n m a n d x = byte_k d (x - a).
Proof. intros H. rewrite write_n_get, in_range_true by exact H. reflexivity. Qed.

Lemma write_n_wf m a n d : wf m -> wf (write_n m a n d).
Proof.
  intros H x. rewrite write_n_get. destruct ((a <=? x) && (x <? a + Z.of_nat n)); [apply byte_k_range|apply H].
Qed.

Lemma read_n_range n : forall m a, wf m -> 0 <= read_n m a n < 256 ^ Z.of_nat n.
Proof.
  induction n as [|k IH]; intros m a H.
  - cbn. lia.
  - cbn [read_n]. replace (Z.of_nat (S k)) with (Z.of_nat k + 1) by lia.
    rewrite pow256_succ by lia. specialize (IH m (a + 1) H). specialize (H a). nia.
Qed.

Lemma read_n_ext n : forall m1 m2 a,
  (forall x, a <= x < a + Z.of_nat n -> m1 x = m2 x) -> read_n m1 a n = read_n m2 a n.
Proof.
  induction n as [|k IH]; intros m1 m2 a H; [reflexivity|].
  cbn [read_n]. rewrite (H a) by lia. rewrite (IH m1 m2 (a + 1)); [reflexivity|].
  intros x Hx. apply H. lia.
Qed.

Lemma read_n_byte n : forall m a k, wf m -> 0 <= k < Z.of_nat n -> byte_k (read_n m a n) k = m (a + k).
Proof.
  induction n as [|j IH]; intros m a k H Hk; [lia|].
  cbn [read_n]. rewrite Z.mul_comm. destruct (Z.eq_dec k 0) as [->|Hk0].
  - rewrite byte_k_0, Z.add_0_r, Z.mod_add by discriminate. apply Z.mod_small, H.
  - replace k with ((k - 1) + 1) at 1 by ring. rewrite byte_k_succ by lia.
    rewrite Z.div_add, Z.div_small, Z.add_0_l by (discriminate || apply H).
    rewrite IH by (try assumption; lia). f_equal. ring.
Qed.

Theorem read_write_same n : forall m a d, read_n (write_n m a n d) a n = d mod 256 ^ Z.of_nat n.
Proof.
  induction n as [|k IH]; intros m a d.
  - cbn. rewrite Z.mod_1_r. reflexivity.
  - cbn [read_n write_n].
    rewrite write_frame by lia. rewrite upd_same. rewrite IH.
    replace (Z.of_nat (S k)) with (Z.of_nat k + 1) by lia. rewrite pow256_succ by lia.
    rewrite Z.rem_mul_r by (try apply pow256_pos; lia). reflexivity.
Qed.

Theorem read_write_other m a n b k d :
  a + Z.of_nat n <= b \/ b + Z.of_nat k <= a -> read_n (write_n m b k d) a n = read_n m a n.
Proof. intros H. apply read_n_ext. intros x Hx. apply write_frame. lia. Qed.

Theorem read_after_write_bytewise m a n b k d j :
  wf m -> 0 <= j < Z.of_nat n ->
  byte_k (read_n (write_n m b k d) a n) j =
    if (b <=? a + j) && (a + j <? b + Z.of_nat k) then byte_k d (a + j - b) else m (a + j).
Proof.
  intros H Hj. rewrite read_n_byte by (try apply write_n_wf; assumption). apply write_n_get.
Qed.

(* the two's complement reading, and the AMO functions: their results stay on the access width *)
Lemma sint_range w u : 0 < w -> 0 <= u < 2 ^ w -> - 2 ^ (w - 1) <= sint w u < 2 ^ (w - 1).
Proof.
  intros Hw Hu. unfold sint.
  assert (E : 2 ^ w = 2 * 2 ^ (w - 1)) by (rewrite <- Z.pow_succ_r by lia; f_equal; lia).
  destruct (u <? 2 ^ (w - 1)) eqn:C; lia.
Qed.
Lemma sint_mod w u : 0 < w -> 0 <= u < 2 ^ w -> sint w u mod 2 ^ w = u.
Proof.
  intros Hw Hu. unfold sint. destruct (u <? 2 ^ (w - 1)).
  - apply Z.mod_small; assumption.
  - replace (u - 2 ^ w) with (u + (-1) * 2 ^ w) by lia. rewrite Z.mod_add by lia. apply Z.mod_small; assumption.
Qed.
Lemma sint_inj w u v : 0 < w -> 0 <= u < 2 ^ w -> 0 <= v < 2 ^ w -> sint w u = sint w v -> u = v.
Proof. intros Hw Hu Hv E. rewrite <- (sint_mod w u), <- (sint_mod w v) by assumption. rewrite E. reflexivity. Qed.

Lemma amo_fun_range op w m a : 0 <= w -> 0 <= m < 2 ^ w -> 0 <= a < 2 ^ w -> 0 <= amo_fun op w m a < 2 ^ w.
Proof.
  intros Hw Hm Ha. destruct op; cbn [amo_fun]; try destruct (_ <? _); try destruct (_ >? _);
    auto using land_range, lor_range, lxor_range.
  apply Z.mod_pos_bound. lia.
Qed.

Theorem amo_min_signed w m a : sint w (amo_fun AMin w m a) = Z.min (sint w m) (sint w a).
Proof. cbn [amo_fun]. destruct (sint w m <? sint w a) eqn:E; lia. Qed.
Theorem amo_max_signed w m a : sint w (amo_fun AMax w m a) = Z.max (sint w m) (sint w a).
Proof. cbn [amo_fun]. destruct (sint w m >? sint w a) eqn:E; lia. Qed.
Theorem amo_minu_unsigned w m a : amo_fun AMinu w m a = Z.min m a.
Proof. cbn [amo_fun]. destruct (a <? m) eqn:E; lia. Qed.
Theorem amo_maxu_unsigned w m a : amo_fun AMaxu w m a = Z.max m a.
Proof. cbn [amo_fun]. destruct (a >? m) eqn:E; lia. Qed.
Theorem amo_add_wraps w m a : amo_fun AAdd w m a = (m + a) mod 2 ^ w.
Proof. reflexivity. Qed.

(* the result of an AMO fits the location it is computed from, so reading it back returns it whole
   (wf m only bounds the old value) *)
Lemma read_write_amo op m a n d : wf m -> let w := 8 * Z.of_nat n in
  read_n (write_n m a n (amo_fun op w (read_n m a n) (d mod 2 ^ w))) a n = amo_fun op w (read_n m a n) (d mod 2 ^ w).
Proof.
  intros H w. rewrite read_write_same, pow256 by lia. fold w.
  apply Z.mod_small, amo_fun_range; [lia| |apply Z.mod_pos_bound, Z.pow_pos_nonneg; lia].
  unfold w. rewrite <- pow256 by lia. apply read_n_range, H.
Qed.

Theorem amo_returns_old_stores_result op m a n d :
  wf m ->
  let w := 8 * Z.of_nat n in
  let old := read_n m a n in
  let '(ret, m') := amo_n op m a n d in
  ret = old /\
  read_n m' a n = amo_fun op w old (d mod 2 ^ w) /\
  (forall x, x < a \/ a + Z.of_nat n <= x -> m' x = m x) /\
  wf m'.
Proof.
  intros H w old. unfold amo_n. split; [reflexivity|]. split; [apply read_write_amo, H|]. split.
  - intros x Hx. apply write_frame, Hx.
  - apply write_n_wf, H.
Qed.

(* one request: the memory it leaves and the data it answers, as two equations from which the facts about single
   requests are read off *)
Lemma mem_step_eq W r m :
  mem_step W r m = match stored_value W r m with Some v => write_n m (q_addr r) (eff_len W r) v | None => m end.
Proof. unfold mem_step, apply, stored_value, amo_n. destruct (q_type r); reflexivity. Qed.

Lemma resp_data_eq W r m :
  p_data (resp_of W r m) = match q_type r with TRead | TAmo _ => read_n m (q_addr r) (eff_len W r) | _ => 0 end.
Proof. unfold resp_of, apply, amo_n. destruct (q_type r); reflexivity. Qed.

Lemma mem_step_wf W r m : wf m -> wf (mem_step W r m).
Proof. intros H. rewrite mem_step_eq. destruct (stored_value W r m); [apply write_n_wf|]; exact H. Qed.

Lemma mem_step_get W r m x :
  mem_step W r m x = match stores W r m x with Some b => b | None => m x end.
Proof.
  rewrite mem_step_eq. unfold stores, writes_at, stored_value.
  destruct (q_type r); try reflexivity; rewrite write_n_get; destruct (_ && _); reflexivity.
Qed.

Theorem request_frame W r m x : writes_at W r x = false -> mem_step W r m x = m x.
Proof. intros H. rewrite mem_step_get. unfold stores. rewrite H. reflexivity. Qed.

Lemma resp_byte W rd m k : wf m -> q_type rd = TRead \/ (exists op, q_type rd = TAmo op) ->
  0 <= k < Z.of_nat (eff_len W rd) -> byte_k (p_data (resp_of W rd m)) k = m (q_addr rd + k).
Proof. intros H Ht Hk. rewrite resp_data_eq. destruct Ht as [->|[op ->]]; apply read_n_byte; assumption. Qed.

Theorem read_does_not_write W r m : q_type r = TRead -> mem_step W r m = m.
Proof. intros H. rewrite mem_step_eq. unfold stored_value. rewrite H. reflexivity. Qed.

Theorem amo_request W r m op :
  wf m -> q_type r = TAmo op ->
  let n := eff_len W r in let w := 8 * Z.of_nat n in let old := read_n m (q_addr r) n in
  p_data (resp_of W r m) = old /\
  read_n (mem_step W r m) (q_addr r) n = amo_fun op w old (q_data r mod 2 ^ w).
Proof.
  intros H Ht n w old. rewrite resp_data_eq, mem_step_eq. unfold stored_value. rewrite Ht.
  split; [reflexivity|apply read_write_amo, H].
Qed.

Theorem write_request W r m :
  q_type r = TWrite ->
  read_n (mem_step W r m) (q_addr r) (eff_len W r) = q_data r mod 256 ^ Z.of_nat (eff_len W r).
Proof.
  intros Ht. rewrite mem_step_eq. unfold stored_value. rewrite Ht, read_write_same, <- pow256 by lia.
  apply Z.mod_mod, Z.pow_nonzero; lia.
Qed.

(* lists of requests, plain and tagged with the servicing port: mem_after, resps, tresps and on_port over ++ *)
Lemma mem_after_app l1 : forall l2 m, mem_after (l1 ++ l2) m = mem_after l2 (mem_after l1 m).
Proof. induction l1 as [|[W r] t IH]; intros; cbn; [reflexivity|apply IH]. Qed.
Lemma resps_app l1 : forall l2 m, resps (l1 ++ l2) m = resps l1 m ++ resps l2 (mem_after l1 m).
Proof. induction l1 as [|[W r] t IH]; intros; cbn; [reflexivity|rewrite IH; reflexivity]. Qed.
Lemma mem_after_wf l : forall m, wf m -> wf (mem_after l m).
Proof. induction l as [|[W r] t IH]; intros m H; cbn; [assumption|apply IH, mem_step_wf, H]. Qed.
Lemma resps_length l : forall m, length (resps l m) = length l.
Proof. induction l as [|[W r] t IH]; intros; cbn; [reflexivity|rewrite IH; reflexivity]. Qed.

Lemma untag_app {A} (l1 l2 : list (nat * A)) : untag (l1 ++ l2) = untag l1 ++ untag l2.
Proof. apply map_app. Qed.
Lemma tmem_after_app Wp l1 l2 m : tmem_after Wp (l1 ++ l2) m = tmem_after Wp l2 (tmem_after Wp l1 m).
Proof. unfold tmem_after, widths. rewrite map_app. apply mem_after_app. Qed.
Lemma tresps_app Wp l1 : forall l2 m, tresps Wp (l1 ++ l2) m = tresps Wp l1 m ++ tresps Wp l2 (tmem_after Wp l1 m).
Proof.
  induction l1 as [|[p r] t IH]; intros; cbn; [reflexivity|]. rewrite IH. reflexivity.
Qed.
Lemma tresps_untag Wp l : forall m, untag (tresps Wp l m) = resps (widths Wp l) m.
Proof. induction l as [|[p r] t IH]; intros; cbn; [reflexivity|f_equal; apply IH]. Qed.
Lemma widths_uniform W l : widths (fun _ => W) l = uniform W (untag l).
Proof. unfold widths, uniform, untag. rewrite map_map. reflexivity. Qed.

Lemma on_port_app {A} p (l1 l2 : list (nat * A)) : on_port p (l1 ++ l2) = on_port p l1 ++ on_port p l2.
Proof. unfold on_port. rewrite filter_app, map_app. reflexivity. Qed.
Lemma on_port_one_same {A} p (x : A) : on_port p [(p, x)] = [x].
Proof. unfold on_port. cbn. rewrite Nat.eqb_refl. reflexivity. Qed.
Lemma on_port_one_other {A} p q (x : A) : q <> p -> on_port p [(q, x)] = [].
Proof. intros H. unfold on_port. cbn. destruct (Nat.eqb_spec q p); [contradiction|reflexivity]. Qed.

(* which write a later read sees: a byte that no later request writes keeps its value, so the last request that
   stores at x decides.  no_write x wr: request wr (with its port's width) does not write byte x *)
Definition no_write (x : Z) (wr : wreq) : Prop := writes_at (fst wr) (snd wr) x = false.

Theorem byte_never_written l m0 x : Forall (no_write x) l -> mem_after l m0 x = m0 x.
Proof.
  revert m0. induction l as [|[W r] t IH]; intros m H; cbn; [reflexivity|].
  inversion H; subst. rewrite IH by assumption. apply request_frame. assumption.
Qed.

Theorem byte_is_most_recent_write l1 (w : wreq) l2 m0 x b :
  stores (fst w) (snd w) (mem_after l1 m0) x = Some b ->
  Forall (no_write x) l2 ->
  mem_after (l1 ++ w :: l2) m0 x = b.
Proof.
  intros Hs Hl2. destruct w as [Ww w]. rewrite mem_after_app. cbn [mem_after].
  rewrite byte_never_written by assumption. rewrite mem_step_get. cbn [fst snd] in Hs. rewrite Hs. reflexivity.
Qed.

Lemma resp_returns_most_recent_write W l1 (w : wreq) l2 rd m0 k b :
  wf m0 -> q_type rd = TRead \/ (exists op, q_type rd = TAmo op) -> 0 <= k < Z.of_nat (eff_len W rd) ->
  stores (fst w) (snd w) (mem_after l1 m0) (q_addr rd + k) = Some b ->
  Forall (no_write (q_addr rd + k)) l2 ->
  byte_k (p_data (resp_of W rd (mem_after (l1 ++ w :: l2) m0))) k = b.
Proof.
  intros Hwf Ht Hk Hs Hl2. rewrite resp_byte by auto using mem_after_wf.
  apply byte_is_most_recent_write; assumption.
Qed.
Theorem read_returns_most_recent_write W l1 (w : wreq) l2 rd m0 k b :
  wf m0 -> q_type rd = TRead -> 0 <= k < Z.of_nat (eff_len W rd) ->
  stores (fst w) (snd w) (mem_after l1 m0) (q_addr rd + k) = Some b ->
  Forall (no_write (q_addr rd + k)) l2 ->
  byte_k (p_data (resp_of W rd (mem_after (l1 ++ w :: l2) m0))) k = b.
Proof. intros Hwf Ht. apply resp_returns_most_recent_write; auto. Qed.
Theorem read_returns_initial_if_never_written W l rd m0 k :
  wf m0 -> q_type rd = TRead -> 0 <= k < Z.of_nat (eff_len W rd) ->
  Forall (no_write (q_addr rd + k)) l ->
  byte_k (p_data (resp_of W rd (mem_after l m0))) k = m0 (q_addr rd + k).
Proof.
  intros Hwf Ht Hk Hl. rewrite resp_byte by auto using mem_after_wf. apply byte_never_written, Hl.
Qed.
Theorem amo_returns_most_recent_write W l1 (w : wreq) l2 rd op m0 k b :
  wf m0 -> q_type rd = TAmo op -> 0 <= k < Z.of_nat (eff_len W rd) ->
  stores (fst w) (snd w) (mem_after l1 m0) (q_addr rd + k) = Some b ->
  Forall (no_write (q_addr rd + k)) l2 ->
  byte_k (p_data (resp_of W rd (mem_after (l1 ++ w :: l2) m0))) k = b.
Proof. intros Hwf Ht. apply resp_returns_most_recent_write; eauto. Qed.

(* responses carry the request's type and opaque field; test = 0; len echoed for reads and AMOs *)
Definition echo (x : resp) (r : req) : Prop :=
  p_type x = q_type r /\ p_opq x = q_opq r /\ p_test x = 0 /\
  match q_type r with TRead | TAmo _ => p_len x = q_len r | _ => p_len x = 0 /\ p_data x = 0 end.
Lemma resp_of_echo W r m : echo (resp_of W r m) r.
Proof. unfold echo, resp_of, apply. destruct (q_type r); cbn; auto. Qed.

Lemma resps_echo l : forall m, Forall2 echo (resps l m) (map snd l).
Proof. induction l as [|[W r] t IH]; intros m; cbn; constructor; [apply resp_of_echo|apply IH]. Qed.
Lemma tresps_on_port_echo Wp p l : forall m, Forall2 echo (on_port p (tresps Wp l m)) (on_port p l).
Proof.
  induction l as [|[q r] t IH]; intros m; cbn; [constructor|].
  unfold on_port in *. cbn. destruct (Nat.eqb q p); cbn; [constructor; [apply resp_of_echo|apply IH]|apply IH].
Qed.
Lemma echo_prefix Wp p l m os more (rs rest : list req) :
  on_port p (tresps Wp l m) = os ++ more -> rs = on_port p l ++ rest ->
  exists rs1 rest', rs = rs1 ++ rest' /\ Forall2 echo os rs1.
Proof.
  intros Eo ->. pose proof (tresps_on_port_echo Wp p l m) as F. rewrite Eo in F.
  apply Forall2_app_inv_l in F. destruct F as (l1 & l2 & F1 & _ & ->).
  exists l1, (l2 ++ rest). split; [symmetry; apply app_assoc|exact F1].
Qed.

(* delay pipes (the deque.rotate model): a non-empty pipe is t ++ [e] with e its exit slot *)
Section PipeFacts.
  Context {A : Type}.
  Implicit Types (l t : pipe A) (e : option A).

  Lemma exit_snoc t e : pipe_exit (t ++ [e]) = e.
  Proof. apply last_last. Qed.
  Lemma clear_exit_snoc t e : pipe_clear_exit (t ++ [e]) = t ++ [None].
  Proof.
    unfold pipe_clear_exit. destruct (t ++ [e]) eqn:E; [destruct t; discriminate|].
    rewrite <- E, removelast_last. reflexivity.
  Qed.
  Lemma rotate_snoc t e : pipe_rotate (t ++ [e]) = match e with None => None :: t | Some _ => t ++ [e] end.
  Proof.
    unfold pipe_rotate. destruct (t ++ [e]) eqn:E; [destruct t; discriminate|].
    rewrite <- E, exit_snoc, removelast_last. reflexivity.
  Qed.
  Lemma inflight_snoc t e : inflight (t ++ [e]) = o2l e ++ inflight t.
  Proof. unfold inflight. rewrite flat_map_app, rev_app_distr. cbn. rewrite app_nil_r. destruct e; reflexivity. Qed.

  Lemma inflight_empty n : inflight (@pipe_empty A n) = [].
  Proof.
    unfold inflight, pipe_empty. replace (flat_map o2l (repeat (@None A) n)) with (@nil A); [reflexivity|].
    induction n; cbn; auto.
  Qed.

  Lemma inflight_rotate l : inflight (pipe_rotate l) = inflight l.
  Proof.
    destruct l as [|e t _] using rev_ind; [reflexivity|]. rewrite rotate_snoc.
    destruct e; [reflexivity|]. rewrite inflight_snoc. reflexivity.
  Qed.
  Lemma length_rotate l : length (pipe_rotate l) = length l.
  Proof.
    destruct l as [|e t _] using rev_ind; [reflexivity|]. rewrite rotate_snoc.
    destruct e; [reflexivity|]. rewrite app_length, Nat.add_comm. reflexivity.
  Qed.

  Lemma inflight_enq x l : head_free l = true -> inflight (pipe_enq x l) = inflight l ++ [x].
  Proof. destruct l as [|[y|] t]; cbn; try discriminate. reflexivity. Qed.
  Lemma length_enq x l : length (pipe_enq x l) = length l.
  Proof. destruct l as [|[y|] t]; reflexivity. Qed.

  Lemma inflight_exit x l : pipe_exit l = Some x -> inflight l = x :: inflight (pipe_clear_exit l).
  Proof.
    destruct l as [|e t _] using rev_ind; [discriminate|]. rewrite exit_snoc. intros ->.
    rewrite clear_exit_snoc, !inflight_snoc. reflexivity.
  Qed.
  Lemma length_clear_exit l : length (pipe_clear_exit l) = length l.
  Proof.
    destruct l as [|e t _] using rev_ind; [reflexivity|]. rewrite clear_exit_snoc, !app_length. reflexivity.
  Qed.
  Lemma exit_none_inflight_head l : pipe_exit l = None -> inflight (pipe_clear_exit l) = inflight l.
  Proof.
    destruct l as [|e t _] using rev_ind; [reflexivity|]. rewrite exit_snoc. intros ->.
    rewrite clear_exit_snoc. reflexivity.
  Qed.
End PipeFacts.

(* A delay pipe on its own, between a source and a destination list, driven by any sequence of operations: PEnq
   enters the next source item if the entry slot is free, PRot rotates, PDeq takes the exit slot's occupant if there is
   one.  This small machine exists to state delay_pipe_order (DelayPipeCL alone neither loses, duplicates nor reorders);
   the memory's pipelines below do not go through it, their invariant uses inflight_enq / inflight_rotate /
   inflight_exit directly. *)
Inductive pipe_op := PEnq | PRot | PDeq.
Definition pipe_step {A} (st : list A * pipe A * list A) (o : pipe_op) : list A * pipe A * list A :=
  let '(src, l, dst) := st in
  match o with
  | PEnq => match src with x :: rest => if head_free l then (rest, pipe_enq x l, dst) else st | [] => st end
  | PRot => (src, pipe_rotate l, dst)
  | PDeq => match pipe_exit l with Some x => (src, pipe_clear_exit l, dst ++ [x]) | None => st end
  end.

Lemma pipe_step_conserved {A} (src : list A) l dst o :
  let '(src', l', dst') := pipe_step (src, l, dst) o in
  dst' ++ inflight l' ++ src' = dst ++ inflight l ++ src /\ length l' = length l.
Proof.
  destruct o; cbn [pipe_step].
  - destruct src as [|x rest]; [auto|]. destruct (head_free l) eqn:F; [|auto].
    rewrite inflight_enq, length_enq, <- app_assoc by exact F. auto.
  - rewrite inflight_rotate, length_rotate. auto.
  - destruct (pipe_exit l) eqn:E; [|auto]. rewrite length_clear_exit, (inflight_exit a l E), <- app_assoc. auto.
Qed.

Theorem delay_pipe_order {A} (ops : list pipe_op) : forall (src : list A) l dst,
  let '(src', l', dst') := fold_left pipe_step ops (src, l, dst) in
  dst' ++ inflight l' ++ src' = dst ++ inflight l ++ src /\ length l' = length l.
Proof.
  induction ops as [|o t IH]; intros src l dst; [cbn; auto|]. cbn [fold_left].
  pose proof (pipe_step_conserved src l dst o) as S. destruct (pipe_step (src, l, dst) o) as [[s1 l1] d1].
  specialize (IH s1 l1 d1). destruct (fold_left pipe_step t (s1, l1, d1)) as [[s' l'] d'].
  destruct S as [<- <-]. exact IH.
Qed.

Lemma set_port_same f p v : set_port f p v p = v.
Proof. unfold set_port. rewrite Nat.eqb_refl. reflexivity. Qed.
Lemma set_port_other f p v q : q <> p -> set_port f p v q = f q.
Proof. intros H. unfold set_port. destruct (Nat.eqb_spec q p); [contradiction|reflexivity]. Qed.

(* the invariant (see the head of the file): per port, requests = serviced ++ in the pipe ++ pending and spec responses
   = delivered ++ in the pipe; the memory is the fold of the log *)
Definition Inv (W : nat -> Z) (reqs : nat -> list req) (m0 : mem) (s : state) : Prop :=
  (forall p, reqs p = on_port p (slog s) ++ req_inflight s p ++ pending (ports s p)) /\
  (forall p, on_port p (tresps W (slog s) m0) = delivered s p ++ resp_inflight s p) /\
  smem s = tmem_after W (slog s) m0.

Lemma inv_init W reqs qlat rlat m0 : Inv W reqs m0 (init reqs qlat rlat m0).
Proof.
  unfold Inv, init, req_inflight, resp_inflight, delivered.
  cbn [ports pending qpipe rpipe outp slog smem tresps]. repeat split.
  - intros p. rewrite inflight_empty. reflexivity.
  - intros p. rewrite inflight_empty. reflexivity.
Qed.

(* an action that only replaces the state of port p by v, keeping p's two sums *)
Lemma inv_set_port W reqs m0 s p v :
  Inv W reqs m0 s ->
  inflight (qpipe v) ++ pending v = req_inflight s p ++ pending (ports s p) ->
  outp v ++ inflight (rpipe v) = delivered s p ++ resp_inflight s p ->
  Inv W reqs m0 (mkS (set_port (ports s) p v) (smem s) (slog s)).
Proof.
  intros (I1 & I2 & I3) Hq Hr. unfold Inv, req_inflight, resp_inflight, delivered in *. cbn [ports smem slog].
  repeat split; [| |exact I3]; intros q; unfold set_port; destruct (Nat.eqb_spec q p) as [->|_]; auto.
  - rewrite Hq. apply I1.
  - rewrite Hr. apply I2.
Qed.

Lemma inv_step W reqs m0 s a : Inv W reqs m0 s -> Inv W reqs m0 (step W s a).
Proof.
  intros I. destruct a as [p|p|p|p|p]; unfold step.
  - destruct (pending (ports s p)) as [|r rest] eqn:P; [exact I|].
    destruct (head_free (qpipe (ports s p))) eqn:F; [|exact I].
    apply inv_set_port; [exact I| |reflexivity]. cbn [qpipe pending].
    rewrite inflight_enq, P, <- app_assoc by exact F. reflexivity.
  - apply inv_set_port; [exact I| |reflexivity]. cbn [qpipe pending]. rewrite inflight_rotate. reflexivity.
  - destruct (pipe_exit (qpipe (ports s p))) as [r|] eqn:E; [|exact I].
    destruct (head_free (rpipe (ports s p))) eqn:F; [|exact I].
    rewrite (surjective_pairing (apply (W p) r (smem s))). fold (resp_of (W p) r (smem s)) (mem_step (W p) r (smem s)).
    destruct I as (I1 & I2 & I3). unfold Inv, req_inflight, resp_inflight, delivered in *. cbn [ports smem slog].
    rewrite tmem_after_app, tresps_app, <- I3. cbn [tresps].
    (* for the other ports the new log entry is invisible *)
    repeat split; intros q; rewrite on_port_app; unfold set_port; destruct (Nat.eqb_spec q p) as [->|N];
      try (rewrite on_port_one_other, app_nil_r by auto; auto).
    + cbn [pending qpipe]. rewrite on_port_one_same, (I1 p), (inflight_exit r _ E), <- !app_assoc. reflexivity.
    + cbn [outp rpipe]. rewrite on_port_one_same, inflight_enq, (I2 p), <- !app_assoc by exact F. reflexivity.
  - apply inv_set_port; [exact I|reflexivity|]. cbn [outp rpipe]. rewrite inflight_rotate. reflexivity.
  - destruct (pipe_exit (rpipe (ports s p))) as [x|] eqn:E; [|exact I].
    apply inv_set_port; [exact I|reflexivity|]. cbn [outp rpipe]. unfold resp_inflight.
    rewrite (inflight_exit x _ E), <- app_assoc. reflexivity.
Qed.

Lemma inv_exec W reqs m0 sched : forall s, Inv W reqs m0 s -> Inv W reqs m0 (exec W s sched).
Proof.
  induction sched as [|a t IH]; intros s H; [assumption|]. cbn. apply IH, inv_step, H.
Qed.

Theorem pipeline_invariant W reqs qlat rlat m0 sched :
  Inv W reqs m0 (exec W (init reqs qlat rlat m0) sched).
Proof. apply inv_exec, inv_init. Qed.


Theorem responses_echo_requests W reqs m0 s p : Inv W reqs m0 s ->
  exists rs rest, reqs p = rs ++ rest /\ Forall2 echo (delivered s p) rs.
Proof. intros (I1 & I2 & _). exact (echo_prefix _ _ _ _ _ _ _ _ (I2 p) (I1 p)). Qed.

Theorem drained_port_complete W reqs m0 s p : Inv W reqs m0 s ->
  drained s p -> on_port p (slog s) = reqs p /\ delivered s p = on_port p (tresps W (slog s) m0).
Proof.
  intros (I1 & I2 & _) (D1 & D2 & D3). split.
  - rewrite (I1 p), D1, D2, !app_nil_r. reflexivity.
  - rewrite (I2 p), D3, app_nil_r. reflexivity.
Qed.

(* timing parameters change only WHEN: two runs (different latencies, different oracles, even different
   not-yet-serviced request tails) whose service logs agree have the same memory image and the same
   response sequence on every port (delivered + still in the response pipe) *)
Theorem timing_irrelevant W m0 reqs1 ql1 rl1 sched1 reqs2 ql2 rl2 sched2 :
  let s1 := exec W (init reqs1 ql1 rl1 m0) sched1 in
  let s2 := exec W (init reqs2 ql2 rl2 m0) sched2 in
  slog s1 = slog s2 ->
  smem s1 = smem s2 /\
  forall p, delivered s1 p ++ resp_inflight s1 p = delivered s2 p ++ resp_inflight s2 p.
Proof.
  intros s1 s2 E.
  destruct (pipeline_invariant W reqs1 ql1 rl1 m0 sched1) as (_ & A2 & A3).
  destruct (pipeline_invariant W reqs2 ql2 rl2 m0 sched2) as (_ & B2 & B3).
  fold s1 in A2, A3. fold s2 in B2, B3. split.
  - rewrite A3, B3, E. reflexivity.
  - intros p. rewrite <- A2, <- B2, E. reflexivity.
Qed.
Corollary timing_irrelevant_drained W m0 reqs1 ql1 rl1 sched1 reqs2 ql2 rl2 sched2 p :
  let s1 := exec W (init reqs1 ql1 rl1 m0) sched1 in
  let s2 := exec W (init reqs2 ql2 rl2 m0) sched2 in
  slog s1 = slog s2 -> resp_inflight s1 p = [] -> resp_inflight s2 p = [] ->
  delivered s1 p = delivered s2 p.
Proof.
  intros s1 s2 E D1 D2.
  destruct (timing_irrelevant W m0 reqs1 ql1 rl1 sched1 reqs2 ql2 rl2 sched2 E) as (_ & H).
  specialize (H p). fold s1 s2 in H. rewrite D1, D2, !app_nil_r in H. assumption.
Qed.

(* the clocked instance: any number of cycles of MagicMemoryCL's schedule with arbitrary accept / sink-ready
   bits per cycle is one such oracle *)
Theorem cycles_invariant W nports reqs qlat rlat m0 cs :
  Inv W reqs m0 (run_cycles W nports (init reqs qlat rlat m0) cs).
Proof. unfold run_cycles. apply pipeline_invariant. Qed.

Lemma single_port_log W p l : (forall q, q <> p -> on_port q l = []) -> forall m,
  on_port p l = untag l /\ widths W l = uniform (W p) (untag l) /\
  on_port p (tresps W l m) = resps (uniform (W p) (untag l)) m.
Proof.
  induction l as [|[q r] t IH]; intros H m; [repeat split|].
  assert (E : q = p).
  { destruct (Nat.eq_dec q p) as [|N]; [assumption|]. specialize (H q N). unfold on_port in H. cbn in H.
    rewrite Nat.eqb_refl in H. discriminate. }
  subst q. destruct (IH) with (m := mem_step (W p) r m) as (E1 & E2 & E3).
  { intros q N. specialize (H q N). change ((p, r) :: t) with ([(p, r)] ++ t) in H.
    rewrite on_port_app, on_port_one_other in H by auto. exact H. }
  unfold on_port, widths, uniform, untag in *. cbn. rewrite Nat.eqb_refl. cbn. rewrite E1, E2, E3. auto.
Qed.

(* a single-ported memory is fully deterministic: whatever the timing, the delivered responses are an
   initial segment of the sequential-spec responses of the port's own stream *)
Theorem single_port_deterministic W reqs m0 s : Inv W reqs m0 s ->
  (forall q, q <> 0%nat -> reqs q = []) ->
  exists done rest more,
    reqs 0%nat = done ++ rest /\
    untag (slog s) = done /\
    resps (uniform (W 0%nat) done) m0 = delivered s 0%nat ++ more /\
    smem s = mem_after (uniform (W 0%nat) done) m0.
Proof.
  intros (I1 & I2 & I3) Hs.
  destruct (single_port_log W 0%nat (slog s)) with (m := m0) as (Eu & Ew & Er).
  { intros q N. specialize (I1 q). rewrite (Hs q N) in I1. symmetry in I1. apply app_eq_nil in I1. apply I1. }
  exists (untag (slog s)), (req_inflight s 0%nat ++ pending (ports s 0%nat)), (resp_inflight s 0%nat).
  repeat split.
  - rewrite <- Eu. apply I1.
  - rewrite <- Er. apply I2.
  - rewrite <- Ew. apply I3.
Qed.

(* the acceptor: its boolean comparisons decide equality, so what check_history accepts is what history_ok describes *)
Lemma type_of_code_ok t : type_of_code (type_code t) = Some t.
Proof. destruct t as [| |x| |]; try reflexivity. destruct x; reflexivity. Qed.
Lemma type_code_inj a b : type_code a = type_code b -> a = b.
Proof. intros H. pose proof (type_of_code_ok a) as E. rewrite H, type_of_code_ok in E. injection E. auto. Qed.

Lemma req_eqb_eq a b : req_eqb a b = true -> a = b.
Proof.
  destruct a as [t1 o1 a1 l1 d1], b as [t2 o2 a2 l2 d2]. unfold req_eqb, mtype_eqb. cbn [q_type q_opq q_addr q_len q_data].
  rewrite !andb_true_iff, !Z.eqb_eq. intros ((((Ht & ->) & ->) & ->) & ->). apply type_code_inj in Ht. subst. reflexivity.
Qed.
Lemma resp_eqb_eq a b : resp_eqb a b = true -> a = b.
Proof.
  destruct a as [t1 o1 a1 l1 d1], b as [t2 o2 a2 l2 d2]. unfold resp_eqb, mtype_eqb. cbn [p_type p_opq p_test p_len p_data].
  rewrite !andb_true_iff, !Z.eqb_eq. intros ((((Ht & ->) & ->) & ->) & ->). apply type_code_inj in Ht. subst. reflexivity.
Qed.
Lemma call_eqb_eq a b : call_eqb a b = true -> a = b.
Proof.
  destruct a, b; cbn [call_eqb]; try discriminate; rewrite !andb_true_iff, !Z.eqb_eq;
    intros H; decompose [and] H; subst; reflexivity.
Qed.
Lemma tcall_eqb_eq a b : tcall_eqb a b = true -> a = b.
Proof.
  destruct a, b. unfold tcall_eqb. cbn [fst snd]. rewrite andb_true_iff, Nat.eqb_eq.
  intros [-> H]. apply call_eqb_eq in H. subst. reflexivity.
Qed.

(* the two list comparisons of the acceptor at once: c = true is list_eqb (nothing may be left over) *)
Lemma cmpb_sound {A} (eqb : A -> A -> bool) (c : bool) : (forall a b, eqb a b = true -> a = b) ->
  forall l1 l2, (if c then list_eqb else prefixb) eqb l1 l2 = true ->
  exists rest, l2 = l1 ++ rest /\ (c = true -> rest = []).
Proof.
  intros Heq. induction l1 as [|x t IH]; intros [|y u] H.
  - exists []. auto.
  - destruct c; [discriminate|]. exists (y :: u). split; [reflexivity|discriminate].
  - destruct c; discriminate.
  - assert (H' : eqb x y && (if c then list_eqb else prefixb) eqb t u = true) by (destruct c; exact H).
    apply andb_prop in H'. destruct H' as [Hxy Ht]. apply Heq in Hxy. subst y.
    destruct (IH u Ht) as (rest & -> & Hr). exists rest. auto.
Qed.
Lemma ports_ok_nth {A} (f : nat -> list A -> bool) ls : forall p0,
  ports_ok f p0 ls = true -> forall i l, nth_error ls i = Some l -> f (p0 + i)%nat l = true.
Proof.
  induction ls as [|x t IH]; intros p0 H i l E; [destruct i; discriminate|].
  cbn in H. apply andb_prop in H. destruct H as [H1 H2]. destruct i as [|i]; cbn in E.
  - inversion E; subst. rewrite Nat.add_0_r. assumption.
  - replace (p0 + S i)%nat with (S p0 + i)%nat by lia. apply (IH (S p0)); assumption.
Qed.

(* What an accepted history means.  reqs, order, out, img are the OBSERVED quantities (request streams handed to
   the ports, MagicMemoryFL calls in the order they happened, responses that arrived, read_mem() at the end);
   l is the explanation.  complete=true additionally demands that every request was serviced and answered. *)
Definition history_ok (Ws : list Z) (init : list (Z * Z)) (reqs : list (list req)) (order : list (nat * call))
           (out : list (list resp)) (img : list (Z * Z)) (complete : bool) (l : tlog) : Prop :=
  let m0 := mem_of_list init mem0 in
  let W := port_width Ws in          (* data width in bytes of each port *)
  (* only configured ports are serviced; every port has a width *)
  (forall p r, In (p, r) l -> (p < length reqs)%nat) /\ length Ws = length reqs /\
  (* every port is serviced in its request order, without gaps *)
  (forall p rs, nth_error reqs p = Some rs ->
     exists rest, rs = on_port p l ++ rest /\ (complete = true -> rest = [])) /\
  (* the log is exactly what the memory was seen doing *)
  calls_of_log W l = order /\
  (* each port's responses, in arrival order, are the sequential-spec responses of its serviced requests *)
  (forall p rs, nth_error out p = Some rs ->
     exists rest, on_port p (tresps W l m0) = rs ++ rest /\ (complete = true -> rest = [])) /\
  (* the final image is the initial image with the serviced requests applied one after another *)
  (forall a b, In (a, b) img -> mem_after (widths W l) m0 a = b).

Theorem check_history_sound Ws init reqs order out img complete l :
  check_history Ws init reqs order out img complete l = true ->
  history_ok Ws init reqs order out img complete l.
Proof.
  unfold check_history, history_ok. cbv zeta. rewrite !andb_true_iff.
  intros ((((((Hports & Hws) & _) & Hreq) & Hcalls) & Hout) & Himg).
  repeat split.
  - intros p r Hin. unfold log_in_ports in Hports. rewrite forallb_forall in Hports.
    apply Nat.ltb_lt, (Hports (p, r) Hin).
  - apply Nat.eqb_eq, Hws.
  - intros p rs E. apply (cmpb_sound req_eqb _ req_eqb_eq), (ports_ok_nth _ _ _ Hreq p rs E).
  - destruct (cmpb_sound tcall_eqb true tcall_eqb_eq _ _ Hcalls) as (rest & -> & Hr).
    rewrite (Hr eq_refl). symmetry. apply app_nil_r.
  - intros p rs E. apply (cmpb_sound resp_eqb _ resp_eqb_eq), (ports_ok_nth _ _ _ Hout p rs E).
  - intros a b Hin. rewrite forallb_forall in Himg. apply Z.eqb_eq, (Himg (a, b) Hin).
Qed.

Corollary accepted_history_echo Ws init reqs order out img complete l p rs os :
  check_history Ws init reqs order out img complete l = true ->
  nth_error reqs p = Some rs -> nth_error out p = Some os ->
  exists rs1 rest, rs = rs1 ++ rest /\ Forall2 echo os rs1.
Proof.
  intros H Er Eo. apply check_history_sound in H. destruct H as (_ & _ & H1 & _ & H3 & _).
  destruct (H1 p rs Er) as (rest1 & E1 & _). destruct (H3 p os Eo) as (rest2 & E2 & _).
  exact (echo_prefix _ _ _ _ _ _ _ _ E2 E1).
Qed.

(* the pipeline model's counterparts of history_ok's clauses on request order, responses and final image, side by
   side (`exec` itself is not connected to `history_ok` by a theorem) *)
Theorem model_history_ok W reqs qlat rlat m0 sched :
  let s := exec W (init reqs qlat rlat m0) sched in
  (forall p, exists rest, reqs p = on_port p (slog s) ++ rest) /\
  (forall p, exists rest, on_port p (tresps W (slog s) m0) = delivered s p ++ rest) /\
  smem s = mem_after (widths W (slog s)) m0.
Proof.
  intros s. destruct (pipeline_invariant W reqs qlat rlat m0 sched) as (I1 & I2 & I3). repeat split.
  - intros p. eexists. apply I1.
  - intros p. eexists. apply I2.
  - exact I3.
Qed.
