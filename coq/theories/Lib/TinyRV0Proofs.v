(* Lib/TinyRV0Proofs.v — facts about the TinyRV0 ISA model of Lib/TinyRV0.v.

   PROVED here:  decode (encode i) = Some i for every instruction form and every field value (so the
   encoder that harness/c20.py compares with the repo's assembler, and the decoder `step` uses, agree);
   encodings are 32-bit words and the encoder is injective; x0 reads as zero in every reachable state;
   registers stay 32-bit; little-endian load/store laws; `step` is a function so every execution has one
   final state (determinism); the proc2mngr output only ever grows by appending (prefix property of run).

   NOT proved: that ProcCL.py or the five-stage ProcRTL.py (ProcCtrlRTL/ProcDpathRTL:
   bypassing, stalling, squashing, the val/rdy queues around them) refine `step`.  A Burch–Dill style
   flushing proof of that pipeline is out of reach of this effort; that half of property C20 rests on the
   differential runs of harness/c20.py against `run`, evaluated inside Coq. *)
From PV Require Import Base.Prelude Lib.TinyRV0.
From Coq Require Import FSets.FMapPositive.
Open Scope Z_scope.

(* An instruction word as the list of its fields (width, value), least significant first: a row of the document's
   encoding table read from the right. *)
Fixpoint pack (fs : list (Z * Z)) : Z :=
  match fs with [] => 0 | (k, v) :: t => v + 2 ^ k * pack t end.
(* every value fits its width, and the widths fit into n bits *)
Fixpoint fits (fs : list (Z * Z)) (n : Z) : Prop :=
  match fs with [] => 0 <= n | (k, v) :: t => 0 <= k <= n /\ 0 <= v < 2 ^ k /\ fits t (n - k) end.
(* the k-bit field that starts at bit lo, if the list has one exactly there *)
Fixpoint field_at (fs : list (Z * Z)) (lo k : Z) : option Z :=
  match fs with
  | [] => None
  | (k', v) :: t => if lo =? 0 then (if k =? k' then Some v else None)
                    else if k' <=? lo then field_at t (lo - k') k else None
  end.

Lemma pack_range fs : forall n, fits fs n -> 0 <= pack fs < 2 ^ n.
Proof.
  induction fs as [|[k v] t IH]; cbn [fits pack]; intros n; [intros; split; [|apply Z.pow_pos_nonneg]; lia|].
  intros (Hk & Hv & Ht). specialize (IH _ Ht). replace n with (k + (n - k)) by ring.
  rewrite Z.pow_add_r by lia. nia.
Qed.

Lemma field_at_ok fs n : fits fs n -> forall lo hi v,
  field_at fs lo (hi - lo + 1) = Some v -> bits (pack fs) lo hi = v.
Proof.
  revert n. induction fs as [|[k v'] t IH]; cbn [fits field_at pack]; [discriminate|]. intros n (Hk & Hv & Ht) lo hi v.
  unfold bits. destruct (Z.eqb_spec lo 0) as [->|Hlo].
  - destruct (Z.eqb_spec (hi - 0 + 1) k) as [->|]; [|discriminate]. intros [= <-].
    rewrite Z.pow_0_r, Z.div_1_r, (Z.mul_comm (2 ^ _)), Z.mod_add, Z.mod_small by lia. reflexivity.
  - destruct (Z.leb_spec k lo); [|discriminate]. replace (hi - lo + 1) with (hi - k - (lo - k) + 1) by ring.
    intros E. apply (IH _ Ht) in E. rewrite <- E. unfold bits. f_equal.
    replace lo with (k + (lo - k)) at 1 by ring. rewrite Z.pow_add_r, <- Z.div_div by (try apply Z.pow_pos_nonneg; lia).
    rewrite (Z.mul_comm (2 ^ k)), Z.div_add, (Z.div_small v') by lia. reflexivity.
Qed.

(* what a read of bits lo..hi gives on such a word: the field standing exactly there if there is one *)
Definition field_read (fs : list (Z * Z)) (w lo hi : Z) : Z :=
  match field_at fs lo (hi - lo + 1) with Some v => v | None => bits w lo hi end.

Lemma pack_reads fs w n : w = pack fs -> fits fs n ->
  0 <= w < 2 ^ n /\ forall lo hi, bits w lo hi = field_read fs w lo hi.
Proof.
  intros -> H. split; [apply pack_range, H|]. intros lo hi. unfold field_read.
  destruct (field_at fs lo (hi - lo + 1)) eqn:E; [apply (field_at_ok _ n H), E|reflexivity].
Qed.

Lemma sext_mod n x : 0 < n -> - 2 ^ (n - 1) <= x < 2 ^ (n - 1) -> sext n (x mod 2 ^ n) = x.
Proof.
  intros Hn. unfold sext. replace (2 ^ n) with (2 * 2 ^ (n - 1)) by (rewrite <- Z.pow_succ_r by lia; f_equal; lia).
  generalize (2 ^ (n - 1)). intros h Hx. destruct (Z.neg_nonneg_cases x).
  - rewrite <- (Z.mod_add x 1), Z.mod_small by lia. destruct (Z.ltb_spec (x + 1 * (2 * h)) h); lia.
  - rewrite Z.mod_small by lia. destruct (Z.ltb_spec x h); lia.
Qed.

(* the four formats as field lists; of the pieces into which the S- and B-formats cut the immediate only their
   widths and their sum matter *)
Lemma enc_r_pack f7 rs2 rs1 f3 rd opc :
  enc_r f7 rs2 rs1 f3 rd opc = pack [(7, opc); (5, rd); (3, f3); (5, rs1); (5, rs2); (7, f7)].
Proof. unfold enc_r. cbn [pack]. ring. Qed.
Lemma enc_i_pack imm rs1 f3 rd opc :
  enc_i imm rs1 f3 rd opc = pack [(7, opc); (5, rd); (3, f3); (5, rs1); (12, imm mod 4096)].
Proof. unfold enc_i. cbn [pack]. ring. Qed.
Lemma enc_s_pack imm rs2 rs1 f3 opc : exists hi lo,
  0 <= hi < 128 /\ 0 <= lo < 32 /\ hi * 32 + lo = imm mod 4096 /\
  enc_s imm rs2 rs1 f3 opc = pack [(7, opc); (5, lo); (3, f3); (5, rs1); (5, rs2); (7, hi)].
Proof.
  unfold enc_s. cbv zeta. pose proof (Z.mod_pos_bound imm 4096 eq_refl) as Hu. revert Hu. generalize (imm mod 4096).
  intros u Hu. exists (bits u 5 11), (bits u 0 4).
  repeat split; try (apply Z.mod_pos_bound; reflexivity); [unfold bits; cbn; lia|]. cbn [pack]. ring.
Qed.
Lemma enc_b_pack imm rs2 rs1 f3 opc : exists b12 b11 b10 b4,
  0 <= b12 < 2 /\ 0 <= b11 < 2 /\ 0 <= b10 < 64 /\ 0 <= b4 < 16 /\
  (imm mod 2 = 0 -> b12 * 4096 + b11 * 2048 + b10 * 32 + b4 * 2 = imm mod 8192) /\
  enc_b imm rs2 rs1 f3 opc = pack [(7, opc); (1, b11); (4, b4); (3, f3); (5, rs1); (5, rs2); (6, b10); (1, b12)].
Proof.
  unfold enc_b. cbv zeta. exists (bits (imm mod 8192) 12 12), (bits (imm mod 8192) 11 11), (bits (imm mod 8192) 5 10),
    (bits (imm mod 8192) 1 4).
  repeat split; try (apply Z.mod_pos_bound; reflexivity); [intros He; unfold bits; cbn; lia|]. cbn [pack]. ring.
Qed.

(* (lia decides boolean comparisons: ZifyBool is loaded by Prelude) *)
Lemma range_guard w : 0 <= w < XLEN -> negb ((0 <=? w) && (w <? XLEN)) = false.
Proof. lia. Qed.

Lemma encode_ok i : wf_instr i -> 0 <= encode i < XLEN /\ decode (encode i) = Some i.
Proof.
  intros H.
  (* decode on a 32-bit word whose reads are given by b: the right-hand side is decode's own body with b for bits w,
     found by reflexivity *)
  eassert (D : forall w b, 0 <= w < XLEN -> (forall lo hi, bits w lo hi = b lo hi) -> decode w = _).
  { intros w b R F. unfold decode, imm_i, imm_s, imm_b. rewrite (range_guard w R), !F. reflexivity. }
  destruct i; cbn [wf_instr encode] in *; unfold is_reg, is_csr in H.
  (* goals in the order of instr's constructors: 1-2 CSRR CSRW, 3-6 ADD AND SLL SRL, 7-8 ADDI LW, 9 SW, 10 BNE *)
  9: destruct (enc_s_pack imm rs2 rs1 2 OPC_STORE) as (hi & lo & Hh & Hl & Es & ->).
  10: destruct (enc_b_pack imm rs2 rs1 1 OPC_BRANCH) as (b12 & b11 & b10 & b4 & H12 & H11 & H10 & H4 & Eb & ->).
  all: rewrite ?enc_r_pack, ?enc_i_pack; remember (pack _) as w eqn:Ew;
    (destruct (pack_reads _ w 32 Ew) as [R F];
     [cbn [fits]; unfold OPC_SYSTEM, OPC_OP, OPC_OPIMM, OPC_LOAD, OPC_STORE, OPC_BRANCH; lia|]);
    (split; [exact R|]); rewrite (D w _ R F); cbn.
  (* decode has been evaluated; the instruction found differs from i at most in how its immediate is written *)
  1,2: rewrite Z.mod_small by apply H; reflexivity.                          (* CSRR, CSRW: the csr number *)
  1-4: reflexivity.                                                          (* the four R-types *)
  1,2: rewrite (sext_mod 12) by (reflexivity || apply H); reflexivity.       (* ADDI, LW; then SW, BNE *)
  - rewrite Es, (sext_mod 12) by (reflexivity || apply H). reflexivity.
  - rewrite Eb, (sext_mod 13) by (reflexivity || apply H). reflexivity.
Qed.

Theorem encode_range i : wf_instr i -> 0 <= encode i < XLEN.
Proof. apply encode_ok. Qed.

Theorem decode_encode i : wf_instr i -> decode (encode i) = Some i.
Proof. apply encode_ok. Qed.

Theorem encode_injective i j : wf_instr i -> wf_instr j -> encode i = encode j -> i = j.
Proof.
  intros Hi Hj E. pose proof (decode_encode i Hi) as A. pose proof (decode_encode j Hj) as B.
  rewrite E in A. rewrite A in B. injection B. auto.
Qed.

Lemma wf_instrb_sound i : wf_instrb i = true -> wf_instr i.
Proof.
  destruct i; cbn [wf_instrb wf_instr]; unfold regb, is_reg, is_csr, is_imm12, is_immb; intros H; lia.
Qed.

(* the assembler's `nop` *)
Example nop_encoding : encode nop = 19 /\ decode 19 = Some nop.
Proof. split; reflexivity. Qed.

(* the all-zero word is not an instruction: `run` stops when it falls off the end of a program *)
Example zero_word_undefined : decode 0 = None.
Proof. reflexivity. Qed.

Lemma nth_upd_other n v l k : n <> k -> nth k (upd n v l) 0 = nth k l 0.
Proof.
  revert n k. induction l as [|h t IH]; intros n k Hne; [destruct n; reflexivity|].
  destruct n, k; cbn [upd nth]; try reflexivity; [congruence|]. apply IH. congruence.
Qed.

Lemma nth_upd_same n v l : (n < length l)%nat -> nth n (upd n v l) 0 = v.
Proof.
  revert n. induction l as [|h t IH]; intros n Hn; cbn [length] in Hn; [lia|].
  destruct n; cbn [upd nth]; [reflexivity|]. apply IH. lia.
Qed.

Lemma length_upd n v l : length (upd n v l) = length l.
Proof. revert n. induction l as [|h t IH]; intros n; destruct n; cbn [upd length]; auto. Qed.

Lemma Forall_upd (P : Z -> Prop) n v l : P v -> Forall P l -> Forall P (upd n v l).
Proof.
  intros Hv. revert n. induction l as [|h t IH]; intros n Hl; destruct n; cbn [upd]; auto;
    inversion Hl; subst; constructor; auto.
Qed.

(* rset tests i <=? 0, so writes to negative specifiers are discarded like writes to x0 *)
Lemma rget_rset_x0 rf i v : rget (rset rf i v) 0 = rget rf 0.
Proof.
  unfold rget, rset. destruct (Z.leb_spec i 0); [reflexivity|].
  change (Z.to_nat 0) with 0%nat. apply nth_upd_other. lia.
Qed.

Lemma rget_rset_same rf i v : 0 < i -> (Z.to_nat i < length rf)%nat -> rget (rset rf i v) i = wrap32 v.
Proof.
  intros Hi Hl. unfold rget, rset. destruct (Z.leb_spec i 0); [lia|]. apply nth_upd_same. exact Hl.
Qed.

Lemma rget_rset_other rf i j v : 0 <= j -> i <> j -> rget (rset rf i v) j = rget rf j.
Proof.
  intros Hj Hne. unfold rget, rset. destruct (Z.leb_spec i 0); [reflexivity|].
  apply nth_upd_other. lia.
Qed.

Definition x0_zero (s : state) : Prop := rget (regs s) 0 = 0.
Definition regs_wf (s : state) : Prop := length (regs s) = 32%nat /\ Forall (fun v => 0 <= v < XLEN) (regs s).

Lemma rset_wf rf i v : length rf = 32%nat /\ Forall (fun v => 0 <= v < XLEN) rf ->
  length (rset rf i v) = 32%nat /\ Forall (fun v => 0 <= v < XLEN) (rset rf i v).
Proof.
  intros [L F]. unfold rset. destruct (i <=? 0); [auto|]. split; [rewrite length_upd; exact L|].
  apply Forall_upd; [unfold wrap32, XLEN; lia|exact F].
Qed.

(* what one instruction can do to the registers, to the two FIFOs and to the accelerator: each right-hand side of
   exec builds one mkState, and the four disjunctions are read off its fields *)
Lemma exec_effect i s s' : exec i s = Some s' ->
  (regs s' = regs s \/ exists rd v, regs s' = rset (regs s) rd v) /\
  (proc2mngr_rev s' = proc2mngr_rev s \/ exists v, proc2mngr_rev s' = v :: proc2mngr_rev s) /\
  (mngr2proc s' = mngr2proc s \/ exists v, mngr2proc s = v :: mngr2proc s') /\
  (xcel s' = xcel s \/ exists c rs1, i = CSRW c rs1 /\ is_xcelreg c = true /\ xcel s' = wrap32 (rget (regs s) rs1)).
Proof.
  destruct i; cbn [exec]; intros E;
    repeat match type of E with
    | (if ?c then _ else _) = Some _ => destruct c eqn:?; [|try discriminate]
    | match ?l with [] => _ | _ :: _ => _ end = Some _ => destruct l eqn:?; [discriminate|]
    end; try discriminate; injection E as <-; cbn [regs proc2mngr_rev mngr2proc xcel]; repeat split; eauto 7.
Qed.

Lemma step_regs s s' : step s = Some s' -> regs s' = regs s \/ exists rd v, regs s' = rset (regs s) rd v.
Proof. unfold step. destruct (fetch s) as [i|]; [apply exec_effect|discriminate]. Qed.

Theorem step_x0 s s' : step s = Some s' -> x0_zero s -> x0_zero s'.
Proof.
  intros E H. unfold x0_zero in *. destruct (step_regs s s' E) as [->|(rd & v & ->)]; [exact H|].
  rewrite rget_rset_x0. exact H.
Qed.

Theorem step_regs_wf s s' : step s = Some s' -> regs_wf s -> regs_wf s'.
Proof.
  intros E H. unfold regs_wf in *. destruct (step_regs s s' E) as [->|(rd & v & ->)]; [exact H|].
  apply rset_wf. exact H.
Qed.

Lemma run_invariant (P : state -> Prop) : (forall s s', step s = Some s' -> P s -> P s') ->
  forall n s, P s -> P (run n s).
Proof.
  intros Hstep. induction n as [|n IH]; intros s H; cbn [run]; [exact H|].
  destruct (step s) as [s'|] eqn:E; [|exact H]. apply IH. apply (Hstep s s' E H).
Qed.

Theorem run_x0 n s : x0_zero s -> x0_zero (run n s).
Proof. apply run_invariant. exact step_x0. Qed.

Theorem run_regs_wf n s : regs_wf s -> regs_wf (run n s).
Proof. apply run_invariant. exact step_regs_wf. Qed.

Lemma init_x0 secs ins : x0_zero (init_state secs ins).
Proof. reflexivity. Qed.

Lemma init_regs_wf secs ins : regs_wf (init_state secs ins).
Proof.
  split; [reflexivity|]. cbn [init_state regs]. unfold zero_regs. apply Forall_forall.
  intros x Hx. apply repeat_spec in Hx. subst. unfold XLEN. lia.
Qed.

(* x0 is hard-wired: in every state reachable from a loaded program, whatever was executed *)
Theorem x0_always_zero secs ins n : rget (regs (run n (init_state secs ins))) 0 = 0.
Proof. apply (run_x0 n). apply init_x0. Qed.

Theorem write_x0_discarded rf v : rset rf 0 v = rf.
Proof. reflexivity. Qed.

(* mkey a = Z.to_pos (a + 1): keys start at 1 and every negative address falls on the key of address 0, hence
   0 <= a in all byte lemmas below (valid_word_addr tests it first) *)
Lemma mkey_inj a b : 0 <= a -> 0 <= b -> mkey a = mkey b -> a = b.
Proof. unfold mkey. intros Ha Hb E. apply Z2Pos.inj in E; lia. Qed.

Lemma byte_set_same m a b : mem_byte (set_byte m a b) a = b mod 256.
Proof. unfold mem_byte, set_byte. rewrite PositiveMap.gss. apply Z.mod_mod. lia. Qed.

Lemma byte_set_other m a a' b : 0 <= a -> 0 <= a' -> a <> a' -> mem_byte (set_byte m a b) a' = mem_byte m a'.
Proof.
  intros Ha Ha' Hne. unfold mem_byte, set_byte. rewrite PositiveMap.gso; [reflexivity|].
  intros E. apply Hne. symmetry. apply mkey_inj; auto.
Qed.

Lemma mem_byte_range m a : 0 <= mem_byte m a < 256.
Proof. unfold mem_byte. destruct (PositiveMap.find (mkey a) m); lia. Qed.

Theorem store4_bytes m a v : 0 <= a ->
  mem_byte (store4 m a v) a = v mod 256 /\
  mem_byte (store4 m a v) (a + 1) = (v / 256) mod 256 /\
  mem_byte (store4 m a v) (a + 2) = (v / 65536) mod 256 /\
  mem_byte (store4 m a v) (a + 3) = (v / 16777216) mod 256.
Proof.
  intros Ha. unfold store4. repeat split; rewrite ?byte_set_other by lia; apply byte_set_same.
Qed.

Theorem load4_store4_same m a v : 0 <= a -> load4 (store4 m a v) a = wrap32 v.
Proof.
  intros Ha. unfold load4. destruct (store4_bytes m a v Ha) as (-> & -> & -> & ->).
  unfold wrap32, XLEN. lia.
Qed.

Theorem store4_frame m a v a' : 0 <= a -> 0 <= a' -> (a' < a \/ a + 3 < a') ->
  mem_byte (store4 m a v) a' = mem_byte m a'.
Proof. intros Ha Ha' H. unfold store4. rewrite !byte_set_other by lia. reflexivity. Qed.

Theorem load4_store4_disjoint m a v a' : 0 <= a -> 0 <= a' -> (a' + 3 < a \/ a + 3 < a') ->
  load4 (store4 m a v) a' = load4 m a'.
Proof. intros Ha Ha' H. unfold load4. rewrite !store4_frame by lia. reflexivity. Qed.

Theorem load4_range m a : 0 <= load4 m a < XLEN.
Proof.
  unfold load4, XLEN. pose proof (mem_byte_range m a). pose proof (mem_byte_range m (a + 1)).
  pose proof (mem_byte_range m (a + 2)). pose proof (mem_byte_range m (a + 3)). lia.
Qed.

Inductive steps : state -> state -> Prop :=
| steps_refl s : steps s s
| steps_next s s' s'' : step s = Some s' -> steps s' s'' -> steps s s''.

Theorem step_deterministic s a b : step s = Some a -> step s = Some b -> a = b.
Proof. congruence. Qed.

Theorem final_state_unique s a b : steps s a -> halted a = true -> steps s b -> halted b = true -> a = b.
Proof.
  unfold halted. intros Sa. revert b. induction Sa as [s|s s' s'' E Sa IH]; intros b Ha Sb Hb.
  - destruct Sb as [|s s1 s2 E _]; [reflexivity|]. rewrite E in Ha. discriminate.
  - destruct Sb as [s|s s1 s2 E1 Sb].
    + rewrite E in Hb. discriminate.
    + rewrite E in E1. injection E1 as <-. apply IH; assumption.
Qed.

Lemma run_steps n s : steps s (run n s).
Proof.
  revert s. induction n as [|n IH]; intros s; cbn [run]; [constructor|].
  destruct (step s) as [s'|] eqn:E; [|constructor]. econstructor; [exact E|apply IH].
Qed.

Lemma run_add n k s : run (n + k) s = run k (run n s).
Proof.
  revert s. induction n as [|n IH]; intros s; cbn [run Nat.add]; [reflexivity|].
  destruct (step s) as [s'|] eqn:E; [apply IH|].
  destruct k; cbn [run]; [reflexivity|]. rewrite E. reflexivity.
Qed.

Theorem run_final s n a : halted (run n s) = true -> steps s a -> halted a = true -> a = run n s.
Proof. intros H Sa Ha. apply (final_state_unique s); auto. apply run_steps. Qed.

Theorem run_halted_stable s n k : halted (run n s) = true -> run (n + k) s = run n s.
Proof.
  intros H. rewrite run_add. unfold halted in H. destruct k; cbn [run]; [reflexivity|].
  destruct (step (run n s)); [discriminate|reflexivity].
Qed.

Theorem step_outputs s s' : step s = Some s' -> outputs s' = outputs s \/ exists v, outputs s' = outputs s ++ [v].
Proof.
  unfold step, outputs. destruct (fetch s) as [i|]; [|discriminate]. intros E.
  destruct (exec_effect i s s' E) as (_ & [->|(v & ->)] & _); [left; reflexivity|right; exists v; reflexivity].
Qed.

Theorem run_outputs_extend n s : exists l, outputs (run n s) = outputs s ++ l.
Proof.
  apply (run_invariant (fun s' => exists l, outputs s' = outputs s ++ l)); [|exists []; symmetry; apply app_nil_r].
  intros s1 s2 E (l & Hl). destruct (step_outputs s1 s2 E) as [->|(v & ->)]; [exists l; exact Hl|].
  exists (l ++ [v]). rewrite Hl. symmetry. apply app_assoc.
Qed.

Theorem outputs_prefix n k s : exists l, outputs (run (n + k) s) = outputs (run n s) ++ l.
Proof. rewrite run_add. apply run_outputs_extend. Qed.

Lemma exec_inputs i s s' : exec i s = Some s' ->
  mngr2proc s' = mngr2proc s \/ exists v, mngr2proc s = v :: mngr2proc s'.
Proof. apply exec_effect. Qed.

(* the model's step on three instruction forms against the document's one-line semantics *)
Theorem exec_add s rd rs1 rs2 : 0 < rd < 32 -> regs_wf s ->
  exists s', exec (ADD rd rs1 rs2) s = Some s' /\
    rget (regs s') rd = (rget (regs s) rs1 + rget (regs s) rs2) mod XLEN /\ pc s' = (pc s + 4) mod XLEN.
Proof.
  intros Hrd [L _]. eexists; split; [reflexivity|]. cbn [regs pc]. split; [|reflexivity].
  rewrite rget_rset_same by lia. reflexivity.
Qed.

Theorem exec_bne s rs1 rs2 imm :
  exists s', exec (BNE rs1 rs2 imm) s = Some s' /\ regs s' = regs s /\ mem s' = mem s /\
    pc s' = if rget (regs s) rs1 =? rget (regs s) rs2 then (pc s + 4) mod XLEN else (pc s + imm) mod XLEN.
Proof. eexists; split; [reflexivity|]. cbn [regs mem pc]. auto. Qed.

Theorem exec_sw_lw s rs2 rs1 imm : valid_word_addr (wrap32 (rget (regs s) rs1 + imm)) = true -> regs_wf s ->
  exists s', exec (SW rs2 rs1 imm) s = Some s' /\ regs s' = regs s /\
    load4 (mem s') (wrap32 (rget (regs s) rs1 + imm)) = wrap32 (rget (regs s) rs2).
Proof.
  intros Hv _. cbn [exec]. rewrite Hv. eexists; split; [reflexivity|]. cbn [regs mem]. split; [reflexivity|].
  apply load4_store4_same. unfold valid_word_addr in Hv. lia.
Qed.

Lemma xcelreg_not_mngr c : is_xcelreg c = true -> (c =? CSR_MNGR2PROC) = false /\ (c =? CSR_PROC2MNGR) = false.
Proof. unfold is_xcelreg, XCEL_LO, XCEL_HI, CSR_MNGR2PROC, CSR_PROC2MNGR. lia. Qed.

(* NullXcel instance: a write to any accelerator register directly followed by a read of any accelerator register
   returns the written register value *)
Theorem xcel_write_then_read s c1 rs1 c2 rd :
  is_xcelreg c1 = true -> is_xcelreg c2 = true ->
  exists s1 s2, exec (CSRW c1 rs1) s = Some s1 /\ exec (CSRR rd c2) s1 = Some s2 /\
    regs s1 = regs s /\ mem s1 = mem s /\ outputs s1 = outputs s /\
    regs s2 = rset (regs s) rd (wrap32 (rget (regs s) rs1)) /\
    mem s2 = mem s /\ outputs s2 = outputs s /\ mngr2proc s2 = mngr2proc s /\ xcel s2 = wrap32 (rget (regs s) rs1).
Proof.
  intros H1 H2. destruct (xcelreg_not_mngr c1 H1) as [_ A]. destruct (xcelreg_not_mngr c2 H2) as [B _].
  cbn [exec]. rewrite A, H1. eexists. cbn [exec xcel regs mem mngr2proc proc2mngr_rev pc]. rewrite B, H2.
  eexists. unfold xcel_read, xcel_write, outputs. cbn [regs mem mngr2proc proc2mngr_rev xcel].
  repeat split; reflexivity.
Qed.

Theorem exec_xcel_frame i s s' : exec i s = Some s' ->
  xcel s' = xcel s \/ exists c rs1, i = CSRW c rs1 /\ is_xcelreg c = true /\ xcel s' = wrap32 (rget (regs s) rs1).
Proof. apply exec_effect. Qed.
