(* Lib/Mem.v — byte-addressed memory, the MemMsg request/response records and the functional
   behaviour of MagicMemoryFL + the request decoding done in MagicMemoryCL.up_mem /
   stream/magic_memory.py MagicMemoryRTL.up_mem.  Definitions only (no proofs): this file must
   keep building (and running inside the correspondence) when a proof breaks.

   Mirrors:
     pymtl3/extra/pypy/fast_bytearray_funcs.py   read_bytearray_bits / write_bytearray_bits
     pymtl3/stdlib/mem/MagicMemoryFL.py           read / write / amo, AMO_FUNS
     pymtl3/stdlib/mem/MemMsg.py                  MemMsgType codes, req = (type_,opaque,addr,len,data),
                                                  resp = (type_,opaque,test,len,data)
     MagicMemoryCL.up_mem                         len_==0 means the full data width, write data is
                                                  req.data[0:len_<<3], write/inv/flush responses carry len 0 *)
From PV Require Import Base.Prelude.
Open Scope Z_scope.

(* ------------------------------------------------------------------ memory *)
Definition mem := Z -> Z.                       (* address -> byte (0..255) *)
Definition mem0 : mem := fun _ => 0.            (* bytearray(n) is all zero *)
Definition upd (m : mem) (a v : Z) : mem := fun x => if x =? a then v else m x.

(* write_mem(addr, bytes) of the harness: preload *)
Fixpoint mem_of_list (l : list (Z * Z)) (m : mem) : mem :=
  match l with [] => m | (a, b) :: t => mem_of_list t (upd m a b) end.

(* read_bytearray_bits: ret = sum arr[addr+i] << 8i  (little endian) *)
Fixpoint read_n (m : mem) (a : Z) (n : nat) : Z :=
  match n with O => 0 | S k => m a + 256 * read_n m (a + 1) k end.

(* write_bytearray_bits: while addr < end: arr[addr] = data & 255; data >>= 8; addr += 1 *)
Fixpoint write_n (m : mem) (a : Z) (n : nat) (d : Z) : mem :=
  match n with O => m | S k => write_n (upd m a (d mod 256)) (a + 1) k (d / 256) end.

Definition read (m : mem) (a len : Z) : Z := read_n m a (Z.to_nat len).
Definition write (m : mem) (a len d : Z) : mem := write_n m a (Z.to_nat len) d.

(* ------------------------------------------------------------------ AMOs *)
Inductive amo_op := AAdd | AAnd | AOr | ASwap | AMin | AMinu | AMax | AMaxu | AXor.

(* Bits.int(): two's complement reading of a w-bit pattern *)
Definition sint (w u : Z) : Z := if u <? 2 ^ (w - 1) then u else u - 2 ^ w.

(* AMO_FUNS on w-bit operands m (memory) and a (argument) *)
Definition amo_fun (op : amo_op) (w m a : Z) : Z :=
  match op with
  | AAdd  => (m + a) mod 2 ^ w                        (* Bits + wraps *)
  | AAnd  => Z.land m a
  | AOr   => Z.lor m a
  | ASwap => a
  | AMin  => if sint w m <? sint w a then m else a    (* m if m.int() < a.int() else a *)
  | AMinu => if a <? m then a else m                  (* builtin min(m, a) *)
  | AMax  => if sint w m >? sint w a then m else a
  | AMaxu => if a >? m then a else m                  (* builtin max(m, a) *)
  | AXor  => Z.lxor m a
  end.

(* MagicMemoryFL.amo on an n-byte location; the argument is taken on the access width *)
Definition amo_n (op : amo_op) (m : mem) (a : Z) (n : nat) (d : Z) : Z * mem :=
  let w := 8 * Z.of_nat n in
  let old := read_n m a n in
  (old, write_n m a n (amo_fun op w old (d mod 2 ^ w))).
Definition amo (op : amo_op) (m : mem) (a len d : Z) : Z * mem := amo_n op m a (Z.to_nat len) d.

(* ------------------------------------------------------------------ messages *)
Inductive mtype := TRead | TWrite | TAmo (op : amo_op) | TInv | TFlush.

Definition amo_code (op : amo_op) : Z :=
  match op with AAdd => 3 | AAnd => 4 | AOr => 5 | ASwap => 6 | AMin => 7 | AMinu => 8
              | AMax => 9 | AMaxu => 10 | AXor => 11 end.
Definition type_code (t : mtype) : Z :=
  match t with TRead => 0 | TWrite => 1 | TAmo op => amo_code op | TInv => 14 | TFlush => 15 end.
Definition type_of_code (c : Z) : option mtype :=
  if c =? 0 then Some TRead else if c =? 1 then Some TWrite else
  if c =? 3 then Some (TAmo AAdd) else if c =? 4 then Some (TAmo AAnd) else
  if c =? 5 then Some (TAmo AOr) else if c =? 6 then Some (TAmo ASwap) else
  if c =? 7 then Some (TAmo AMin) else if c =? 8 then Some (TAmo AMinu) else
  if c =? 9 then Some (TAmo AMax) else if c =? 10 then Some (TAmo AMaxu) else
  if c =? 11 then Some (TAmo AXor) else if c =? 14 then Some TInv else
  if c =? 15 then Some TFlush else None.

Record req  := mkReq  { q_type : mtype; q_opq : Z; q_addr : Z; q_len : Z; q_data : Z }.
Record resp := mkResp { p_type : mtype; p_opq : Z; p_test : Z; p_len : Z; p_data : Z }.

(* request from the integer fields the harness reads off the real message; unknown type codes are mapped
   to TInv (a no-op): the harness never produces them, the implementation asserts on them *)
Definition req_of (c o a l d : Z) : req :=
  mkReq (match type_of_code c with Some t => t | None => TInv end) o a l d.

(* W = data width of the message in bytes (data_nbits >> 3); len_ = W when the len field is 0 *)
Definition eff_len (W : Z) (r : req) : nat := Z.to_nat (if q_len r =? 0 then W else q_len r).

Definition apply (W : Z) (r : req) (m : mem) : resp * mem :=
  let n := eff_len W r in
  match q_type r with
  | TRead   => (mkResp TRead (q_opq r) 0 (q_len r) (read_n m (q_addr r) n), m)
  | TWrite  => (mkResp TWrite (q_opq r) 0 0 0,
                write_n m (q_addr r) n (q_data r mod 2 ^ (8 * Z.of_nat n)))
  | TAmo op => let '(old, m') := amo_n op m (q_addr r) n (q_data r) in
               (mkResp (TAmo op) (q_opq r) 0 (q_len r) old, m')
  | TInv    => (mkResp TInv (q_opq r) 0 0 0, m)
  | TFlush  => (mkResp TFlush (q_opq r) 0 0 0, m)
  end.

Definition resp_of (W : Z) (r : req) (m : mem) : resp := fst (apply W r m).
Definition mem_step (W : Z) (r : req) (m : mem) : mem := snd (apply W r m).

(* ------------------------------------------------------------------ sequential specification *)
(* A processed request comes with the data width (in bytes) of the port it arrived on: ports of one memory
   may carry message types of different data widths, and len = 0 means the width of THAT port. *)
Definition wreq := (Z * req)%type.
Fixpoint mem_after (rs : list wreq) (m : mem) : mem :=
  match rs with [] => m | (W, r) :: t => mem_after t (mem_step W r m) end.
Fixpoint resps (rs : list wreq) (m : mem) : list resp :=
  match rs with [] => [] | (W, r) :: t => resp_of W r m :: resps t (mem_step W r m) end.
Definition run (rs : list wreq) (m : mem) : list resp * mem := (resps rs m, mem_after rs m).
(* all requests on one width *)
Definition uniform (W : Z) (rs : list req) : list wreq := map (pair W) rs.

(* logs tagged with the port that was serviced *)
Definition tlog := list (nat * req).
Definition untag {A} (l : list (nat * A)) : list A := map snd l.
Definition on_port {A} (p : nat) (l : list (nat * A)) : list A :=
  map snd (filter (fun x => Nat.eqb (fst x) p) l).
(* Wp p = data width in bytes of port p *)
Definition widths (Wp : nat -> Z) (l : tlog) : list wreq := map (fun x => (Wp (fst x), snd x)) l.
Fixpoint tresps (Wp : nat -> Z) (l : tlog) (m : mem) : list (nat * resp) :=
  match l with [] => [] | (p, r) :: t => (p, resp_of (Wp p) r m) :: tresps Wp t (mem_step (Wp p) r m) end.
Definition tmem_after (Wp : nat -> Z) (l : tlog) (m : mem) : mem := mem_after (widths Wp l) m.

(* which bytes a request stores, and what it stores there (given the memory it is applied to) *)
Definition stored_value (W : Z) (r : req) (m : mem) : option Z :=
  let n := eff_len W r in
  match q_type r with
  | TWrite  => Some (q_data r mod 2 ^ (8 * Z.of_nat n))
  | TAmo op => Some (amo_fun op (8 * Z.of_nat n) (read_n m (q_addr r) n) (q_data r mod 2 ^ (8 * Z.of_nat n)))
  | _ => None
  end.
Definition writes_at (W : Z) (r : req) (x : Z) : bool :=
  match q_type r with
  | TWrite | TAmo _ => (q_addr r <=? x) && (x <? q_addr r + Z.of_nat (eff_len W r))
  | _ => false
  end.
Definition byte_k (v k : Z) : Z := (v / 256 ^ k) mod 256.
Definition stores (W : Z) (r : req) (m : mem) (x : Z) : option Z :=
  if writes_at W r x then
    match stored_value W r m with Some v => Some (byte_k v (x - q_addr r)) | None => None end
  else None.

(* ------------------------------------------------------------------ what the implementation is seen doing *)
(* the MagicMemoryFL method call made for a request (observed by wrapping read/write/amo; the data
   argument is compared on the access width only, the bytes above it never reach the memory);
   INV/FLUSH make no call *)
Inductive call := CRead (a n : Z) | CWrite (a n d : Z) | CAmo (code a n d : Z).
Definition call_of (W : Z) (r : req) : option call :=
  let n := Z.of_nat (eff_len W r) in
  match q_type r with
  | TRead   => Some (CRead (q_addr r) n)
  | TWrite  => Some (CWrite (q_addr r) n (q_data r mod 2 ^ (8 * n)))
  | TAmo op => Some (CAmo (amo_code op) (q_addr r) n (q_data r mod 2 ^ (8 * n)))
  | _ => None
  end.

(* ------------------------------------------------------------------ decidable equalities *)
Definition amo_eqb (a b : amo_op) : bool := amo_code a =? amo_code b.
Definition mtype_eqb (a b : mtype) : bool := type_code a =? type_code b.
Definition req_eqb (a b : req) : bool :=
  mtype_eqb (q_type a) (q_type b) && (q_opq a =? q_opq b) && (q_addr a =? q_addr b) &&
  (q_len a =? q_len b) && (q_data a =? q_data b).
Definition resp_eqb (a b : resp) : bool :=
  mtype_eqb (p_type a) (p_type b) && (p_opq a =? p_opq b) && (p_test a =? p_test b) &&
  (p_len a =? p_len b) && (p_data a =? p_data b).
Definition call_eqb (a b : call) : bool :=
  match a, b with
  | CRead a1 n1, CRead a2 n2 => (a1 =? a2) && (n1 =? n2)
  | CWrite a1 n1 d1, CWrite a2 n2 d2 => (a1 =? a2) && (n1 =? n2) && (d1 =? d2)
  | CAmo c1 a1 n1 d1, CAmo c2 a2 n2 d2 => (c1 =? c2) && (a1 =? a2) && (n1 =? n2) && (d1 =? d2)
  | _, _ => false
  end.

Fixpoint list_eqb {A} (eqb : A -> A -> bool) (l1 l2 : list A) : bool :=
  match l1, l2 with
  | [], [] => true
  | x :: t1, y :: t2 => eqb x y && list_eqb eqb t1 t2
  | _, _ => false
  end.
Fixpoint prefixb {A} (eqb : A -> A -> bool) (l1 l2 : list A) : bool :=   (* l1 is a prefix of l2 *)
  match l1, l2 with
  | [], _ => true
  | x :: t1, y :: t2 => eqb x y && prefixb eqb t1 t2
  | _ :: _, [] => false
  end.

(* ------------------------------------------------------------------ history acceptor (T-acc) *)
(* What the harness observed on the real memory:
     reqs   : the request stream given to each port
     order  : the MagicMemoryFL calls in the order they happened, tagged with the servicing port
     out    : the responses that came out of each port, in arrival order
     img    : (address, byte) pairs of read_mem() at the end
   plus a proposed log (port, request) computed by the (untrusted) harness.  The acceptor checks that
   the log explains everything that was observed. *)
Definition calls_of_log (Wp : nat -> Z) (l : tlog) : list (nat * call) :=
  flat_map (fun x => match call_of (Wp (fst x)) (snd x) with Some c => [(fst x, c)] | None => [] end) l.
Definition tcall_eqb (a b : nat * call) : bool := Nat.eqb (fst a) (fst b) && call_eqb (snd a) (snd b).

Fixpoint ports_ok {A} (f : nat -> list A -> bool) (p : nat) (ls : list (list A)) : bool :=
  match ls with [] => true | l :: t => f p l && ports_ok f (S p) t end.

Definition log_in_ports (nports : nat) (l : tlog) : bool := forallb (fun x => Nat.ltb (fst x) nports) l.

Definition port_width (Ws : list Z) (p : nat) : Z := nth p Ws 0.

Definition check_history (Ws : list Z) (init : list (Z * Z)) (reqs : list (list req)) (order : list (nat * call))
           (out : list (list resp)) (img : list (Z * Z)) (complete : bool) (l : tlog) : bool :=
  let m0 := mem_of_list init mem0 in
  let W := port_width Ws in          (* Ws = data width in bytes of each port's message type *)
  let sp := tresps W l m0 in
  let mf := tmem_after W l m0 in
  log_in_ports (length reqs) l &&
  Nat.eqb (length Ws) (length reqs) &&
  Nat.eqb (length out) (length reqs) &&
  (* each port is serviced in request order: the log restricted to a port is a prefix of its stream *)
  ports_ok (fun p rs => (if complete then list_eqb else prefixb) req_eqb (on_port p l) rs) 0 reqs &&
  (* the log is what the memory was seen doing, in that order *)
  list_eqb tcall_eqb (calls_of_log W l) order &&
  (* the responses of a port are the sequential-spec responses of its serviced requests, in order *)
  ports_ok (fun p rs => (if complete then list_eqb else prefixb) resp_eqb rs (on_port p sp)) 0 out &&
  (* final image = applying the serviced requests one after another *)
  forallb (fun ab => mf (fst ab) =? snd ab) img.
