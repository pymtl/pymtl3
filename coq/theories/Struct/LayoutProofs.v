(* Struct/LayoutProofs.v — the packing layout of Struct/Layout.v (property C06): pack and unpack are inverse on typed values,
   the leaf ranges form one descending chain from the total width to 0 in declaration order, and a generated to_bits /
   from_bits text that passes its check computes pack / unpack.  Then the cell-store model: clone, @= and <<= with _flip
   transfer values leaf by leaf and never share a cell.  No axioms, nothing admitted. *)
From PV Require Import Base.Prelude Bits.BitsSpec Bits.BitsLemmas Struct.Shape Struct.Layout.
Open Scope Z_scope.

Lemma sumz_cons x a : sumz (x :: a) = x + sumz a.
Proof. reflexivity. Qed.

Lemma sumz_app a b : sumz (a ++ b) = sumz a + sumz b.
Proof. induction a as [|x a IH]; [reflexivity|]. rewrite <- app_comm_cons, !sumz_cons, IH. lia. Qed.

Lemma widths_cons f fr : widths (f :: fr) = width f + widths fr.
Proof. reflexivity. Qed.

Lemma widths_nil : widths [] = 0.
Proof. reflexivity. Qed.

Lemma width_struct fs : width (SStruct fs) = widths fs.
Proof. reflexivity. Qed.

Lemma width_list len e : width (SList len e) = Z.of_nat len * width e.
Proof. reflexivity. Qed.

Lemma width_list_succ k e : width (SList (S k) e) = Z.of_nat k * width e + width e.
Proof. rewrite width_list. lia. Qed.

(* len * w, the width of a list field *)
Lemma lenw_nonneg k w : 0 <= w -> 0 <= Z.of_nat k * w.
Proof. intros Hw. apply Z.mul_nonneg_nonneg; lia. Qed.

Lemma forall2b_length {A B} (f : A -> B -> bool) l m : forall2b f l m = true -> length l = length m.
Proof.
  revert m; induction l as [|a l IH]; intros [|b m] H; cbn in H; try discriminate; [reflexivity|].
  apply andb_prop in H as [_ H]. cbn. f_equal. apply IH, H.
Qed.

(* Induction over well-formed shapes.  Q is the statement for the field list of a struct; it comes out as a
   second conclusion, so a theorem and its field-list form are proved together.  There is no such predicate for the
   elements of a list field: they all have the one shape e, and each SList case does its own induction on the length
   or on the value list, with the hypothesis for e in hand. *)
Lemma wf_shape_ind (P : shape -> Prop) (Q : list shape -> Prop) :
  (forall n, 0 < n -> P (SBits n)) ->
  Q [] ->
  (forall f fr, wf f = true -> forallb wf fr = true -> P f -> Q fr -> Q (f :: fr)) ->
  (forall fs, fs <> [] -> forallb wf fs = true -> Q fs -> P (SStruct fs)) ->
  (forall len e, len <> 0%nat -> wf e = true -> P e -> P (SList len e)) ->
  (forall T, wf T = true -> P T) /\ (forall fs, forallb wf fs = true -> Q fs).
Proof.
  intros Hb Hnil Hcons Hs Hl.
  assert (HQ : forall fs, Forall (fun T => wf T = true -> P T) fs -> forallb wf fs = true -> Q fs).
  { induction 1 as [|f fr Hf _ IHr]; cbn [forallb]; intros H; [exact Hnil|].
    apply andb_prop in H as [H1 H2]. apply Hcons; auto. }
  assert (HP : forall T, wf T = true -> P T).
  { induction T as [n|fs IH|len e IH] using shape_ind'; cbn [wf]; intros H.
    - apply Hb. lia.
    - apply andb_prop in H as [Hne Hall]. apply Hs; [intros ->; discriminate|exact Hall|apply HQ; assumption].
    - apply andb_prop in H as [Hne He]. apply Hl; [intros ->; discriminate|exact He|apply IH, He]. }
  split; [exact HP|]. intros fs. apply HQ, Forall_forall. intros T _. apply HP.
Qed.

(* the shape induction when the statement for a field list is just the statement for every field *)
Lemma wf_shape_ind_forall (P : shape -> Prop) :
  (forall n, 0 < n -> P (SBits n)) ->
  (forall fs, forallb wf fs = true -> Forall P fs -> P (SStruct fs)) ->
  (forall len e, wf e = true -> P e -> P (SList len e)) ->
  forall T, wf T = true -> P T.
Proof. intros Hb Hs Hl. apply (wf_shape_ind P (Forall P)); auto. Qed.

Lemma width_pos :
  (forall T, wf T = true -> 0 < width T) /\
  (forall fs, forallb wf fs = true -> 0 <= widths fs /\ (fs <> [] -> 0 < widths fs)).
Proof.
  apply wf_shape_ind.
  - intros n Hn. exact Hn.
  - rewrite widths_nil. split; [lia|congruence].
  - intros f fr _ _ Hf [Hr _]. rewrite widths_cons. split; intros; lia.
  - intros fs Hne _ [_ H]. apply H, Hne.
  - intros len e Hne _ He. rewrite width_list. apply Z.mul_pos_pos; lia.
Qed.

Lemma wf_nonneg T : wf T = true -> 0 <= width T.
Proof. intros H. apply Z.lt_le_incl, (proj1 width_pos), H. Qed.

Lemma wfs_nonneg fs : forallb wf fs = true -> 0 <= widths fs.
Proof. intros H. apply (proj2 width_pos fs H). Qed.

Lemma sumz_concat_repeat l k : sumz (concat (repeat l k)) = Z.of_nat k * sumz l.
Proof.
  induction k as [|k IH]; [reflexivity|]. cbn [repeat concat]. rewrite sumz_app, IH. lia.
Qed.

Theorem width_sum T : width T = sumz (leaf_widths T).
Proof.
  induction T as [n|fs IH|len e IH] using shape_ind'; cbn [width leaf_widths].
  - cbn. lia.
  - induction IH as [|f fr Hf _ IHr]; [reflexivity|].
    cbn [map concat]. rewrite sumz_app, sumz_cons, Hf, IHr. reflexivity.
  - rewrite sumz_concat_repeat, IH. reflexivity.
Qed.

(* arithmetic of a field a of width w placed above the k low bits r *)
Lemma join_range a r w k : 0 <= w -> 0 <= k -> 0 <= a < 2 ^ w -> 0 <= r < 2 ^ k ->
  0 <= a * 2 ^ k + r < 2 ^ (w + k).
Proof.
  intros Hw Hk Ha Hr. rewrite Z.pow_add_r by lia.
  pose proof (pow2_gt0 k Hk). pose proof (pow2_gt0 w Hw). nia.
Qed.

Lemma join_div a r k : 0 <= k -> 0 <= r < 2 ^ k -> (a * 2 ^ k + r) / 2 ^ k = a.
Proof.
  intros Hk Hr. pose proof (pow2_gt0 k Hk).
  rewrite Z.add_comm, Z.div_add by lia. rewrite Z.div_small by lia. lia.
Qed.

Lemma join_mod a r k : 0 <= k -> 0 <= r < 2 ^ k -> (a * 2 ^ k + r) mod 2 ^ k = r.
Proof.
  intros Hk Hr. pose proof (pow2_gt0 k Hk).
  rewrite Z.add_comm, Z.mod_add by lia. apply Z.mod_small; lia.
Qed.

Lemma join_high a r z w k : 0 <= w -> 0 <= k -> a * 2 ^ k + r + z * 2 ^ (w + k) = (a + z * 2 ^ w) * 2 ^ k + r.
Proof. intros Hw Hk. rewrite Z.pow_add_r by assumption. ring. Qed.

Lemma split_mod b w k : 0 <= w -> 0 <= k ->
  ((b / 2 ^ k) mod 2 ^ w) * 2 ^ k + b mod 2 ^ k = b mod 2 ^ (w + k).
Proof.
  intros Hw Hk. pose proof (pow2_gt0 k Hk). pose proof (pow2_gt0 w Hw).
  rewrite (Z.add_comm w k), Z.pow_add_r by lia. rewrite Z.rem_mul_r by lia. lia.
Qed.

Lemma div_div_pow2 b i j : 0 <= i -> 0 <= j -> b / 2 ^ i / 2 ^ j = b / 2 ^ (i + j).
Proof.
  intros Hi Hj. pose proof (pow2_gt0 i Hi). pose proof (pow2_gt0 j Hj).
  rewrite Z.pow_add_r, Z.div_div by lia. reflexivity.
Qed.

Lemma pack_struct_cons f fr x xr :
  pack (SStruct (f :: fr)) (VStruct (x :: xr)) = pack f x * 2 ^ (width (SStruct fr)) + pack (SStruct fr) (VStruct xr).
Proof. reflexivity. Qed.
Lemma pack_list_cons k e x xr :
  pack (SList (S k) e) (VList (x :: xr)) = pack e x + 2 ^ (width e) * pack (SList k e) (VList xr).
Proof. reflexivity. Qed.

(* the element list with element 0 lowest, in the form join_range / join_high / split_mod speak of *)
Lemma pack_elems_cons rece we x xr : pack_elems rece we (x :: xr) = pack_elems rece we xr * 2 ^ we + rece x.
Proof. cbn [pack_elems]. ring. Qed.

Lemma typed_struct_inv fs v : typed (SStruct fs) v = true -> exists vs, v = VStruct vs /\ forall2b typed fs vs = true.
Proof. destruct v; cbn [typed]; try discriminate. intros H; eexists; split; [reflexivity|exact H]. Qed.

Lemma typed_list_inv len e v : typed (SList len e) v = true ->
  exists vs, v = VList vs /\ length vs = len /\ forallb (typed e) vs = true.
Proof.
  destruct v; cbn [typed]; try discriminate. intros H. apply andb_prop in H as [Hl Ha].
  eexists; split; [reflexivity|]. split; [apply Nat.eqb_eq, Hl|exact Ha].
Qed.

Lemma typed_bits_inv n v : typed (SBits n) v = true -> exists u, v = VBits u /\ 0 <= u < 2 ^ n.
Proof. destruct v; cbn [typed]; try discriminate. intros H. eexists; split; [reflexivity|lia]. Qed.

Lemma typed_fields_cons_inv f fr vs : forall2b typed (f :: fr) vs = true ->
  exists x xr, vs = x :: xr /\ typed f x = true /\ forall2b typed fr xr = true.
Proof.
  destruct vs as [|x xr]; cbn [forall2b]; [discriminate|]. intros H. apply andb_prop in H.
  exists x, xr. split; [reflexivity|exact H].
Qed.

Lemma pack_range_fields :
  (forall T, wf T = true -> forall v, typed T v = true -> 0 <= pack T v < 2 ^ width T) /\
  (forall fs, forallb wf fs = true -> forall vs, forall2b typed fs vs = true ->
     0 <= pack_fields pack fs vs < 2 ^ widths fs).
Proof.
  apply wf_shape_ind.
  - intros n _ v Hty. apply typed_bits_inv in Hty as (u & -> & Hu). exact Hu.
  - intros vs _. cbn. lia.
  - intros f fr Hf Hfr IHf IHr vs Hty. apply typed_fields_cons_inv in Hty as (x & xr & -> & Hx & Hxr).
    cbn [pack_fields]. rewrite widths_cons.
    apply join_range; [apply wf_nonneg, Hf|apply wfs_nonneg, Hfr|apply IHf, Hx|apply IHr, Hxr].
  - intros fs _ _ IH v Hty. apply typed_struct_inv in Hty as (vs & -> & Hty). apply IH, Hty.
  - intros len e _ He IH v Hty. apply typed_list_inv in Hty as (vs & -> & <- & Hall).
    pose proof (wf_nonneg e He) as Hwe. cbn [pack].
    induction vs as [|x xr IHx]; [cbn; lia|].
    cbn [forallb] in Hall. apply andb_prop in Hall as [Hx Hxr].
    cbn [length]. rewrite pack_elems_cons, width_list_succ.
    apply join_range; [apply lenw_nonneg, Hwe|exact Hwe|apply IHx, Hxr|apply IH, Hx].
Qed.

Theorem pack_range T : forall v, wf T = true -> typed T v = true -> 0 <= pack T v < 2 ^ (width T).
Proof. intros v Hwf. apply (proj1 pack_range_fields T Hwf). Qed.

(* unpack cuts a field out by division alone, so what it hands to the field's own unpack still carries
   every bit above that field: the statement that goes through the induction allows arbitrary z there *)
Lemma unpack_pack_gen :
  (forall T, wf T = true -> forall v z, typed T v = true -> unpack T (pack T v + z * 2 ^ width T) = v) /\
  (forall fs, forallb wf fs = true -> forall vs z, forall2b typed fs vs = true ->
     unpack_fields unpack fs (pack_fields pack fs vs + z * 2 ^ widths fs) = vs).
Proof.
  apply wf_shape_ind.
  - intros n Hn v z Hty. apply typed_bits_inv in Hty as (u & -> & Hu). cbn [pack unpack width]. f_equal.
    rewrite Z.mod_add by (pose proof (pow2_gt0 n); lia). apply Z.mod_small, Hu.
  - intros [|x xr] z Hty; [reflexivity|discriminate].
  - intros f fr Hf Hfr IHf IHr vs z Hty. apply typed_fields_cons_inv in Hty as (x & xr & -> & Hx & Hxr).
    pose proof (wf_nonneg f Hf) as Hw1. pose proof (wfs_nonneg fr Hfr) as Hwr.
    pose proof (proj2 pack_range_fields fr Hfr xr Hxr) as Hr.
    cbn [pack_fields unpack_fields]. rewrite widths_cons, join_high by assumption. f_equal.
    + rewrite join_div by assumption. apply IHf, Hx.
    + rewrite Z.add_comm. apply IHr, Hxr.
  - intros fs _ _ IH v z Hty. apply typed_struct_inv in Hty as (vs & -> & Hty).
    cbn [pack unpack]. rewrite width_struct. f_equal. apply IH, Hty.
  - intros len e _ He IH v z Hty. apply typed_list_inv in Hty as (vs & -> & <- & Hall).
    pose proof (wf_nonneg e He) as Hwe. cbn [pack unpack]. f_equal.
    revert z. induction vs as [|x xr IHx]; intros z; [reflexivity|].
    cbn [forallb] in Hall. apply andb_prop in Hall as [Hx Hxr].
    pose proof (proj1 pack_range_fields e He x Hx) as Hpx.
    cbn [length unpack_elems]. rewrite pack_elems_cons, width_list_succ, join_high by (try apply lenw_nonneg; assumption).
    f_equal.
    + rewrite Z.add_comm. apply IH, Hx.
    + rewrite join_div by assumption. apply IHx, Hxr.
Qed.

(* from_bits (to_bits v) = v *)
Theorem unpack_pack T v : wf T = true -> typed T v = true -> unpack T (pack T v) = v.
Proof.
  intros Hwf Hty. pose proof (proj1 unpack_pack_gen T Hwf v 0 Hty) as H.
  rewrite Z.mul_0_l, Z.add_0_r in H. exact H.
Qed.

Lemma pack_unpack_mod :
  (forall T, wf T = true -> forall b, pack T (unpack T b) = b mod 2 ^ width T) /\
  (forall fs, forallb wf fs = true -> forall b,
     pack_fields pack fs (unpack_fields unpack fs b) = b mod 2 ^ widths fs).
Proof.
  apply wf_shape_ind.
  - reflexivity.
  - intros b. cbn. rewrite Z.mod_1_r. reflexivity.
  - intros f fr Hf Hfr IHf IHr b. cbn [pack_fields unpack_fields]. rewrite widths_cons, IHf, IHr.
    apply split_mod; [apply wf_nonneg, Hf|apply wfs_nonneg, Hfr].
  - intros fs _ _ IH b. apply IH.
  - intros len e _ He IH b. pose proof (wf_nonneg e He) as Hwe. cbn [pack unpack].
    revert b. induction len as [|k IHk]; intros b.
    + cbn. rewrite Z.mod_1_r. reflexivity.
    + cbn [unpack_elems]. rewrite pack_elems_cons, IH, IHk, width_list_succ.
      apply split_mod; [apply lenw_nonneg, Hwe|exact Hwe].
Qed.

(* to_bits (from_bits b) = b *)
Theorem pack_unpack T b : wf T = true -> 0 <= b < 2 ^ (width T) -> pack T (unpack T b) = b.
Proof. intros Hwf Hb. rewrite (proj1 pack_unpack_mod) by assumption. apply Z.mod_small, Hb. Qed.

Lemma unpack_typed_fields :
  (forall T, wf T = true -> forall b, typed T (unpack T b) = true) /\
  (forall fs, forallb wf fs = true -> forall b, forall2b typed fs (unpack_fields unpack fs b) = true).
Proof.
  apply wf_shape_ind.
  - intros n Hn b. cbn [unpack typed]. pose proof (Z.mod_pos_bound b (2 ^ n) (pow2_gt0 n ltac:(lia))). lia.
  - reflexivity.
  - intros f fr _ _ IHf IHr b. cbn [unpack_fields forall2b]. rewrite IHf, IHr. reflexivity.
  - intros fs _ _ IH b. apply IH.
  - intros len e _ _ IH b. cbn [unpack typed]. revert b.
    induction len as [|k IHk]; intros b; [reflexivity|].
    specialize (IHk (b / 2 ^ width e)). apply andb_prop in IHk as [Hlen Hall].
    cbn [unpack_elems length forallb Nat.eqb]. rewrite Hlen, IH, Hall. reflexivity.
Qed.

Theorem unpack_typed T : forall b, wf T = true -> typed T (unpack T b) = true.
Proof. intros b Hwf. apply (proj1 unpack_typed_fields T Hwf). Qed.

Lemma pre_path s r : rpath (pre s r) = s :: rpath r. Proof. reflexivity. Qed.
Lemma pre_lo s r : rlo (pre s r) = rlo r. Proof. reflexivity. Qed.
Lemma pre_hi s r : rhi (pre s r) = rhi r. Proof. reflexivity. Qed.

Lemma chain_app l1 : forall top mid l2 bot, chain top l1 mid -> chain mid l2 bot -> chain top (l1 ++ l2) bot.
Proof.
  induction l1 as [|r l1 IH]; cbn [chain app]; intros top mid l2 bot H1 H2.
  - subst. exact H2.
  - destruct H1 as (Ha & Hb & Hc). repeat split; try assumption. eapply IH; eassumption.
Qed.

Lemma chain_map_pre s l : forall top bot, chain top l bot -> chain top (map (pre s) l) bot.
Proof.
  induction l as [|r l IH]; cbn [chain map]; intros top bot H; [exact H|].
  destruct H as (Ha & Hb & Hc). rewrite pre_lo, pre_hi. repeat split; try assumption. apply IH, Hc.
Qed.

Lemma chain_le l : forall top bot, chain top l bot -> bot <= top.
Proof.
  induction l as [|r l IH]; cbn [chain]; intros top bot H; [lia|].
  destruct H as (Ha & Hb & Hc). apply IH in Hc. lia.
Qed.

Lemma chain_bounds l : forall top bot r, chain top l bot -> In r l -> bot <= rlo r /\ rlo r < rhi r /\ rhi r <= top.
Proof.
  induction l as [|a l IH]; cbn [chain In]; intros top bot r H Hin; [contradiction|].
  destruct H as (Ha & Hb & Hc). destruct Hin as [->|Hin].
  - apply chain_le in Hc. lia.
  - specialize (IH _ _ _ Hc Hin). lia.
Qed.

Lemma chain_cover l : forall top bot i, chain top l bot -> bot <= i < top -> exists r, In r l /\ rlo r <= i < rhi r.
Proof.
  induction l as [|a l IH]; cbn [chain]; intros top bot i H Hi; [lia|].
  destruct H as (Ha & Hb & Hc). destruct (Z_lt_le_dec i (rlo a)) as [Hlt|Hge].
  - destruct (IH _ _ i Hc ltac:(lia)) as (r & Hin & Hr). exists r. split; [right; exact Hin|exact Hr].
  - exists a. split; [left; reflexivity|lia].
Qed.

Lemma chain_ordered l : forall top bot, chain top l bot -> ForallOrdPairs (fun r1 r2 => rhi r2 <= rlo r1) l.
Proof.
  induction l as [|a l IH]; cbn [chain]; intros top bot H; [constructor|].
  destruct H as (Ha & Hb & Hc). constructor; [|eapply IH, Hc].
  apply Forall_forall. intros r Hin. pose proof (chain_bounds _ _ _ r Hc Hin). lia.
Qed.

(* a block of ranges that is a chain, put on top of a chain from mid down to lo *)
Lemma chain_block s blk rest lo mid w : chain (mid + w) blk mid -> chain mid rest lo ->
  chain (mid + w) (map (pre s) blk ++ rest) lo.
Proof. intros Hb Hr. apply chain_app with (mid := mid); [apply chain_map_pre, Hb|exact Hr]. Qed.

Lemma ranges_elems_chain rece we : (forall lo, chain (lo + we) (rece lo) lo) ->
  forall k lo, chain (lo + Z.of_nat k * we) (ranges_elems rece we k lo) lo.
Proof.
  intros He. induction k as [|k IHk]; intros lo.
  - cbn. lia.
  - cbn [ranges_elems]. replace (lo + Z.of_nat (S k) * we) with (lo + Z.of_nat k * we + we) by lia.
    apply chain_block; [apply He|apply IHk].
Qed.

Lemma ranges_chain :
  (forall T, wf T = true -> forall lo, chain (lo + width T) (ranges_at T lo) lo) /\
  (forall fs, forallb wf fs = true -> forall lo i, chain (lo + widths fs) (ranges_fields ranges_at fs lo i) lo).
Proof.
  apply wf_shape_ind.
  - intros n Hn lo. cbn. repeat split; lia.
  - intros lo i. cbn [ranges_fields chain]. rewrite widths_nil. lia.
  - intros f fr _ _ IHf IHr lo i. cbn [ranges_fields].
    replace (lo + widths (f :: fr)) with (lo + widths fr + width f) by (rewrite widths_cons; lia).
    apply chain_block; [apply IHf|apply IHr].
  - intros fs _ _ IH lo. apply IH.
  - intros len e _ _ IH lo. apply ranges_elems_chain, IH.
Qed.

Lemma in_ranges_fields rec fs : forall lo i r, In r (ranges_fields rec fs lo i) ->
  exists ps f fr r', fs = ps ++ f :: fr /\ r = pre (Fld (i + length ps)) r' /\ In r' (rec f (lo + widths fr)).
Proof.
  induction fs as [|f fr IH]; intros lo i r Hin; [contradiction|].
  cbn [ranges_fields] in Hin. apply in_app_or in Hin as [Hin|Hin].
  - apply in_map_iff in Hin as (r' & <- & Hr'). exists [], f, fr, r'.
    cbn [length app]. rewrite Nat.add_0_r. repeat split. exact Hr'.
  - apply IH in Hin as (ps & g & gr & r' & -> & -> & Hr'). exists (f :: ps), g, gr, r'.
    cbn [length app]. rewrite Nat.add_succ_r. repeat split. exact Hr'.
Qed.

Lemma in_ranges_elems rece we : forall k lo r, In r (ranges_elems rece we k lo) ->
  exists j r', (j < k)%nat /\ r = pre (Idx j) r' /\ In r' (rece (lo + Z.of_nat j * we)).
Proof.
  induction k as [|k IH]; intros lo r Hin; [contradiction|].
  cbn [ranges_elems] in Hin. apply in_app_or in Hin as [Hin|Hin].
  - apply in_map_iff in Hin as (r' & <- & Hr'). exists k, r'. repeat split; [lia|exact Hr'].
  - apply IH in Hin as (j & r' & Hj & -> & Hr'). exists j, r'. repeat split; [lia|exact Hr'].
Qed.

(* the order of the layout: the earlier field / the later list element is the more significant one.
   Fields and elements alike give `map (pre s) blk ++ rest`, and the two ranges fall into four cases: both in blk (recurse
   into the field / element), r1 in blk and r2 in rest (blk lies above rest: chain bounds), r1 in rest and r2 in blk
   (impossible: the first step of r1's path is a later field / an earlier element than s), both in rest (induction). *)
Lemma ranges_above :
  (forall T, wf T = true -> forall lo r1 r2, In r1 (ranges_at T lo) -> In r2 (ranges_at T lo) ->
     above (rpath r1) (rpath r2) -> rhi r2 <= rlo r1) /\
  (forall fs, forallb wf fs = true -> forall lo i r1 r2,
     In r1 (ranges_fields ranges_at fs lo i) -> In r2 (ranges_fields ranges_at fs lo i) ->
     above (rpath r1) (rpath r2) -> rhi r2 <= rlo r1).
Proof.
  apply wf_shape_ind.
  - intros n _ lo r1 r2 [<-|[]] [<-|[]] Hab. contradiction.
  - intros lo i r1 r2 [].
  - intros f fr Hf Hfr IHf IHr lo i r1 r2 H1 H2 Hab. cbn [ranges_fields] in H1, H2.
    apply in_app_or in H1 as [H1|H1]; apply in_app_or in H2 as [H2|H2].
    + apply in_map_iff in H1 as (a & <- & Ha). apply in_map_iff in H2 as (b & <- & Hb).
      rewrite !pre_path in Hab. cbn [above] in Hab. rewrite pre_hi, pre_lo.
      destruct Hab as [Hlt|[_ Hab]]; [lia|]. eapply IHf; eassumption.
    + apply in_map_iff in H1 as (a & <- & Ha). rewrite pre_lo.
      pose proof (chain_bounds _ _ _ a (proj1 ranges_chain f Hf (lo + widths fr)) Ha).
      pose proof (chain_bounds _ _ _ r2 (proj2 ranges_chain fr Hfr lo (S i)) H2). lia.
    + apply in_map_iff in H2 as (b & <- & Hb). rewrite pre_path in Hab.
      apply in_ranges_fields in H1 as (ps & g & gr & a & _ & -> & _). rewrite pre_path in Hab. cbn [above] in Hab. lia.
    + eapply IHr; eassumption.
  - intros fs _ _ IH lo. apply IH.
  - intros len e _ He IH lo r1 r2 H1 H2 Hab. cbn [ranges_at] in H1, H2. revert H1 H2.
    induction len as [|k IHk]; intros H1 H2; [contradiction|].
    cbn [ranges_elems] in H1, H2.
    apply in_app_or in H1 as [H1|H1]; apply in_app_or in H2 as [H2|H2].
    + apply in_map_iff in H1 as (a & <- & Ha). apply in_map_iff in H2 as (b & <- & Hb).
      rewrite !pre_path in Hab. cbn [above] in Hab. rewrite pre_hi, pre_lo.
      destruct Hab as [Hlt|[_ Hab]]; [lia|]. eapply IH; eassumption.
    + apply in_map_iff in H1 as (a & <- & Ha). rewrite pre_lo.
      pose proof (chain_bounds _ _ _ a (proj1 ranges_chain e He (lo + Z.of_nat k * width e)) Ha).
      pose proof (chain_bounds _ _ _ r2 (ranges_elems_chain _ _ (proj1 ranges_chain e He) k lo) H2). lia.
    + apply in_map_iff in H2 as (b & <- & Hb). rewrite pre_path in Hab.
      apply in_ranges_elems in H1 as (j & a & Hj & -> & _). rewrite pre_path in Hab. cbn [above] in Hab. lia.
    + apply IHk; assumption.
Qed.

Lemma nth_unpack_fields rec ps f fr B :
  nth_error (unpack_fields rec (ps ++ f :: fr) B) (length ps) = Some (rec f (B / 2 ^ widths fr)).
Proof. induction ps as [|p ps IH]; [reflexivity|exact IH]. Qed.

Lemma nth_unpack_elems rece we : 0 <= we -> forall k j B, (j < k)%nat ->
  nth_error (unpack_elems rece we k B) j = Some (rece (B / 2 ^ (Z.of_nat j * we))).
Proof.
  intros Hwe. induction k as [|k IH]; intros j B Hj; [lia|].
  cbn [unpack_elems]. destruct j as [|j]; cbn [nth_error].
  - cbn. rewrite Z.div_1_r. reflexivity.
  - rewrite IH, div_div_pow2 by (try apply lenw_nonneg; lia). do 4 f_equal. lia.
Qed.

(* every leaf range is a Bits leaf of that width, and from_bits reads exactly that slice into it *)
Lemma ranges_leaf : forall T, wf T = true -> forall off r b, 0 <= off -> In r (ranges_at T off) ->
  shape_at T (rpath r) = Some (SBits (rhi r - rlo r)) /\
  leaf_at (unpack T (b / 2 ^ off)) (rpath r) = Some (slice b (rlo r) (rhi r)).
Proof.
  refine (wf_shape_ind_forall _ _ _ _).
  - intros n _ off r b _ [<-|[]]. cbn. unfold slice. replace (off + n - off) with n by lia. split; reflexivity.
  - intros fs Hfs IH off r b Hoff Hin. cbn [ranges_at unpack] in *.
    apply in_ranges_fields in Hin as (ps & f & fr & a & -> & -> & Ha).
    rewrite forallb_app in Hfs. apply andb_prop in Hfs as [_ Hfs].
    cbn [forallb] in Hfs. apply andb_prop in Hfs as [_ Hfr]. pose proof (wfs_nonneg fr Hfr) as Hwr.
    apply Forall_elt in IH.
    rewrite pre_path, pre_lo, pre_hi. cbn [shape_at leaf_at Nat.add].
    rewrite nth_error_app2, Nat.sub_diag, nth_unpack_fields, div_div_pow2 by lia.
    apply IH; [lia|exact Ha].
  - intros len e He IH off r b Hoff Hin. pose proof (wf_nonneg e He) as Hwe.
    cbn [ranges_at unpack] in *. apply in_ranges_elems in Hin as (j & a & Hj & -> & Ha).
    pose proof (lenw_nonneg j _ Hwe) as Hj0.
    rewrite pre_path, pre_lo, pre_hi. cbn [shape_at leaf_at].
    rewrite nth_unpack_elems, div_div_pow2 by assumption.
    apply Nat.ltb_lt in Hj. rewrite Hj. apply IH; [lia|exact Ha].
Qed.

(* to_bits puts every leaf exactly on its range *)
Theorem pack_places_leaf T v r : wf T = true -> typed T v = true -> In r (leaf_ranges T) ->
  shape_at T (rpath r) = Some (SBits (rhi r - rlo r)) /\
  leaf_at v (rpath r) = Some (slice (pack T v) (rlo r) (rhi r)).
Proof.
  intros Hwf Hty Hin. destruct (ranges_leaf T Hwf 0 r (pack T v) ltac:(lia) Hin) as [E1 E2].
  split; [exact E1|]. rewrite Z.pow_0_r, Z.div_1_r, unpack_pack in E2 by assumption. exact E2.
Qed.

Theorem leaf_ranges_chain T : wf T = true -> chain (width T) (leaf_ranges T) 0.
Proof. intros Hwf. apply (proj1 ranges_chain T Hwf 0). Qed.

Theorem leaf_ranges_bounds T r : wf T = true -> In r (leaf_ranges T) -> 0 <= rlo r /\ rlo r < rhi r /\ rhi r <= width T.
Proof. intros Hwf Hin. exact (chain_bounds _ _ _ r (leaf_ranges_chain T Hwf) Hin). Qed.

Theorem leaf_ranges_cover T i : wf T = true -> 0 <= i < width T ->
  exists r, In r (leaf_ranges T) /\ rlo r <= i < rhi r.
Proof. intros Hwf Hi. exact (chain_cover _ _ _ i (leaf_ranges_chain T Hwf) Hi). Qed.

Theorem leaf_ranges_disjoint T r1 r2 i : wf T = true -> In r1 (leaf_ranges T) -> In r2 (leaf_ranges T) ->
  rlo r1 <= i < rhi r1 -> rlo r2 <= i < rhi r2 -> r1 = r2.
Proof.
  intros Hwf H1 H2 Hi1 Hi2.
  pose proof (chain_ordered _ _ _ (leaf_ranges_chain T Hwf)) as Hord.
  destruct (ForallOrdPairs_In Hord r1 r2 H1 H2) as [E|[E|E]]; [exact E|lia|lia].
Qed.

Theorem leaf_ranges_order T r1 r2 : wf T = true -> In r1 (leaf_ranges T) -> In r2 (leaf_ranges T) ->
  above (rpath r1) (rpath r2) -> rhi r2 <= rlo r1.
Proof. intros Hwf. apply (proj1 ranges_above T Hwf 0). Qed.

Theorem pack_testbit T v r : wf T = true -> typed T v = true -> In r (leaf_ranges T) ->
  exists u, leaf_at v (rpath r) = Some u /\ 0 <= u < 2 ^ (rhi r - rlo r) /\
            forall i, rlo r <= i < rhi r -> Z.testbit (pack T v) i = Z.testbit u (i - rlo r).
Proof.
  intros Hwf Hty Hin. destruct (pack_places_leaf T v r Hwf Hty Hin) as [_ E].
  pose proof (leaf_ranges_bounds T r Hwf Hin) as Hb.
  exists (slice (pack T v) (rlo r) (rhi r)). split; [exact E|]. unfold slice. split.
  - apply Z.mod_pos_bound, pow2_gt0. lia.
  - intros i Hi. rewrite slice_testbit by lia.
    destruct (Z.ltb_spec (i - rlo r) (rhi r - rlo r)); [|lia]. f_equal. lia.
Qed.

Theorem pack_high_zero T v i : wf T = true -> typed T v = true -> width T <= i -> Z.testbit (pack T v) i = false.
Proof.
  intros Hwf Hty Hi. apply testbit_high with (n := width T); [apply wf_nonneg, Hwf|apply pack_range; assumption|exact Hi].
Qed.

Lemma join_slice P lo hi : 0 <= lo <= hi ->
  Z.lor (Z.shiftl (P / 2 ^ hi) (hi - lo)) (slice P lo hi) = P / 2 ^ lo.
Proof.
  intros H. unfold slice. pose proof (pow2_gt0 (hi - lo) ltac:(lia)) as Hp.
  rewrite lor_shiftl_add by (try lia; apply Z.mod_pos_bound; lia).
  replace hi with (lo + (hi - lo)) at 1 by lia. rewrite <- div_div_pow2 by lia.
  rewrite Z.mul_comm. symmetry. apply Z.div_mod. lia.
Qed.

Definition rarg (P : Z) (r : rng) : Z * Z := (rhi r - rlo r, slice P (rlo r) (rhi r)).

Lemma concat_chain P l : forall top bot n0, chain top l bot -> 0 <= bot ->
  fold_left concat_step (map (rarg P) l) (n0, P / 2 ^ top) = (n0 + (top - bot), P / 2 ^ bot).
Proof.
  induction l as [|r l IH]; cbn [chain map fold_left]; intros top bot n0 H Hb.
  - subst. f_equal. lia.
  - destruct H as (Ha & Hlt & Hc). pose proof (chain_le _ _ _ Hc) as Hle.
    unfold concat_step at 2. cbn [fst snd rarg]. rewrite <- Ha.
    rewrite join_slice by lia. rewrite (IH (rlo r) bot) by assumption. f_equal. lia.
Qed.

Theorem to_bits_concat T v : wf T = true -> typed T v = true ->
  concat_model (concat_args T v (map rpath (leaf_ranges T))) = (width T, pack T v).
Proof.
  intros Hwf Hty. unfold concat_model, concat_args. rewrite map_map.
  rewrite (map_ext_in _ (rarg (pack T v))).
  2:{ intros r Hin. destruct (pack_places_leaf T v r Hwf Hty Hin) as [E1 E2].
      unfold leaf_or0. rewrite E1, E2. reflexivity. }
  pose proof (pack_range T v Hwf Hty) as Hr.
  replace (0, 0) with (0, pack T v / 2 ^ width T) by (rewrite Z.div_small by lia; reflexivity).
  rewrite (concat_chain _ _ (width T) 0 0 (leaf_ranges_chain T Hwf)) by lia.
  rewrite Z.pow_0_r, Z.div_1_r. f_equal. lia.
Qed.

(* list_eqb is forall2b at one type (Struct/Shape.v has both; paths and ranges are compared with this one, trees and values
   with forall2b): the -> half of forall2b_iff below, from the -> half for the elements *)
Lemma list_eqb_eq {A} (eqb : A -> A -> bool) : (forall a b, eqb a b = true -> a = b) ->
  forall l m, list_eqb eqb l m = true -> l = m.
Proof.
  intros He. induction l as [|a l IH]; intros [|b m] H; cbn in H; try discriminate; [reflexivity|].
  apply andb_prop in H as [H1 H2]. f_equal; [apply He, H1|apply IH, H2].
Qed.

Lemma step_eqb_eq a b : step_eqb a b = true -> a = b.
Proof. destruct a, b; cbn; try discriminate; intros H; apply Nat.eqb_eq in H; subst; reflexivity. Qed.

Lemma path_eqb_eq p q : path_eqb p q = true -> p = q.
Proof. apply list_eqb_eq, step_eqb_eq. Qed.

Lemma rng_eqb_eq a b : rng_eqb a b = true -> a = b.
Proof.
  destruct a as [[p lo] hi], b as [[q lo'] hi']. unfold rng_eqb, rpath, rlo, rhi. cbn [fst snd]. intros H.
  apply andb_prop in H as [H H3]. apply andb_prop in H as [H1 H2]. apply path_eqb_eq in H1.
  apply Z.eqb_eq in H2, H3. subst. reflexivity.
Qed.

Lemma layout_down_paths T ps : forall top l, layout_down T ps top = Some l -> map rpath l = ps.
Proof.
  induction ps as [|p ps IH]; cbn [layout_down]; intros top l H.
  - inversion H. reflexivity.
  - destruct (shape_at T p) as [[n| |]|]; try discriminate.
    destruct (layout_down T ps (top - n)) as [l'|] eqn:E; [|discriminate].
    inversion H; subst. cbn [map]. f_equal. eapply IH, E.
Qed.

Lemma check_to_bits_paths T ps : check_to_bits T ps = true -> ps = map rpath (leaf_ranges T).
Proof.
  unfold check_to_bits, ranges_opt_eqb, layout_of_concat. intros H.
  destruct (layout_down T ps (concat_total T ps)) as [l|] eqn:E; [|discriminate].
  apply (list_eqb_eq _ rng_eqb_eq) in H. subst l. symmetry. eapply layout_down_paths, E.
Qed.

(* whenever the check on the parsed text passes, concat over that text computes pack — for ALL values of the shape *)
Theorem to_bits_text_correct T ps v : wf T = true -> typed T v = true -> check_to_bits T ps = true ->
  concat_model (concat_args T v ps) = (width T, pack T v).
Proof. intros Hwf Hty Hc. rewrite (check_to_bits_paths T ps Hc). apply to_bits_concat; assumption. Qed.

Lemma eval_range_tree :
  (forall T, wf T = true -> forall lo b, 0 <= lo -> eval_rtree (range_tree T lo) b = unpack T (b / 2 ^ lo)) /\
  (forall fs, forallb wf fs = true -> forall lo b, 0 <= lo ->
     map (fun t => eval_rtree t b) (tree_fields range_tree fs lo) = unpack_fields unpack fs (b / 2 ^ lo)).
Proof.
  apply wf_shape_ind.
  - intros n _ lo b _. cbn [range_tree eval_rtree unpack]. unfold slice. replace (lo + n - lo) with n by lia. reflexivity.
  - reflexivity.
  - intros f fr _ Hfr IHf IHr lo b Hlo. pose proof (wfs_nonneg fr Hfr).
    cbn [tree_fields map unpack_fields]. rewrite IHf, IHr, div_div_pow2 by lia. reflexivity.
  - intros fs _ _ IH lo b Hlo. cbn [range_tree eval_rtree unpack]. f_equal. apply IH, Hlo.
  - intros len e _ He IH lo b Hlo. pose proof (wf_nonneg e He) as Hwe.
    cbn [range_tree eval_rtree unpack]. f_equal.
    revert lo Hlo. induction len as [|k IHk]; intros lo Hlo; [reflexivity|].
    cbn [tree_elems map unpack_elems]. rewrite IH, IHk, div_div_pow2 by lia. reflexivity.
Qed.

Lemma forall2b_iff {A} (f : A -> A -> bool) l : Forall (fun a => forall b, f a b = true <-> a = b) l ->
  forall m, forall2b f l m = true <-> l = m.
Proof.
  induction 1 as [|a l Ha _ IH]; intros [|b m]; cbn [forall2b]; try (split; [discriminate|discriminate]); [tauto|].
  rewrite andb_true_iff, Ha, IH. split; [intros [-> ->]; reflexivity|intros E; inversion E; auto].
Qed.

Lemma rtree_eqb_eq a : forall b, rtree_eqb a b = true <-> a = b.
Proof.
  induction a as [lo hi|ts IH|ts IH] using rtree_ind'; intros [lo' hi'|us|us]; cbn [rtree_eqb]; try (split; discriminate).
  1: { rewrite andb_true_iff, !Z.eqb_eq. split; [intros [-> ->]; reflexivity|intros E; inversion E; auto]. }
  all: rewrite (forall2b_iff _ _ IH).
  all: split; [intros ->; reflexivity|intros E; inversion E; reflexivity].
Qed.

Theorem from_bits_text_correct T t b : wf T = true -> check_from_bits T t = true -> eval_rtree t b = unpack T b.
Proof.
  intros Hwf H. unfold check_from_bits in H. apply andb_prop in H as [H _]. apply rtree_eqb_eq in H. subst t.
  rewrite (proj1 eval_range_tree) by (try assumption; lia). rewrite Z.pow_0_r, Z.div_1_r. reflexivity.
Qed.

Lemma rtree_ranges_range_tree T : forall lo, rtree_ranges (range_tree T lo) = ranges_at T lo.
Proof.
  induction T as [n|fs IH|len e IH] using shape_ind'; intros lo.
  - reflexivity.
  - cbn [range_tree rtree_ranges ranges_at]. generalize 0%nat.
    induction IH as [|f fr Hf _ IHr]; intros i; [reflexivity|].
    cbn [tree_fields rr_struct ranges_fields]. rewrite Hf, IHr. reflexivity.
  - cbn [range_tree rtree_ranges ranges_at].
    assert (G : forall k i,
      rr_list rtree_ranges (tree_elems (range_tree e) (width e) k (lo + Z.of_nat i * width e)) i
        ++ ranges_elems (ranges_at e) (width e) i lo
      = ranges_elems (ranges_at e) (width e) (i + k) lo).
    { induction k as [|k IHk]; intros i.
      - cbn [tree_elems rr_list app]. rewrite Nat.add_0_r. reflexivity.
      - cbn [tree_elems rr_list]. rewrite <- app_assoc.
        replace (lo + Z.of_nat i * width e + width e) with (lo + Z.of_nat (S i) * width e) by lia.
        rewrite IH. change (map (pre (Idx i)) (ranges_at e (lo + Z.of_nat i * width e)) ++ ranges_elems (ranges_at e) (width e) i lo)
          with (ranges_elems (ranges_at e) (width e) (S i) lo).
        rewrite IHk. f_equal. lia. }
    specialize (G len 0%nat). cbn [ranges_elems Nat.add] in G. rewrite app_nil_r in G.
    replace (lo + Z.of_nat 0 * width e) with lo in G by lia. exact G.
Qed.

Lemma veqb_eq v : forall w, veqb v w = true <-> v = w.
Proof.
  induction v as [u|vs IH|vs IH] using value_ind'; intros [u'|ws|ws]; cbn [veqb]; try (split; discriminate).
  1: rewrite Z.eqb_eq.
  2,3: rewrite (forall2b_iff _ _ IH).
  all: split; [intros ->; reflexivity|intros E; inversion E; reflexivity].
Qed.

Theorem eq_iff_pack T v w : wf T = true -> typed T v = true -> typed T w = true ->
  (v = w <-> pack T v = pack T w).
Proof.
  intros Hwf Hv Hw. split; [intros ->; reflexivity|]. intros E.
  rewrite <- (unpack_pack T v Hwf Hv), <- (unpack_pack T w Hwf Hw), E. reflexivity.
Qed.

Theorem veqb_pack T v w : wf T = true -> typed T v = true -> typed T w = true ->
  veqb v w = (pack T v =? pack T w).
Proof.
  intros Hwf Hv Hw. apply eq_true_iff_eq. rewrite veqb_eq, Z.eqb_eq. apply eq_iff_pack; assumption.
Qed.

Theorem hash_respects_eq hleaf htuple T v w : wf T = true -> typed T v = true -> typed T w = true ->
  pack T v = pack T w -> vhash hleaf htuple T v = vhash hleaf htuple T w.
Proof. intros Hwf Hv Hw E. apply (eq_iff_pack T v w Hwf Hv Hw) in E. subst. reflexivity. Qed.

Theorem hash_of_packed hleaf htuple T : wf T = true ->
  exists H : Z -> Z, forall v, typed T v = true -> vhash hleaf htuple T v = H (pack T v).
Proof.
  intros Hwf. exists (fun b => vhash hleaf htuple T (unpack T b)). intros v Hv.
  rewrite unpack_pack by assumption. reflexivity.
Qed.

Lemma curv_set_cur st l u k : curv (set_cur st l u) k = if Nat.eqb k l then u else curv st k.
Proof. unfold curv, set_cur, upd; cbn. destruct (Nat.eqb k l); reflexivity. Qed.
Lemma nxtv_set_cur st l u k : nxtv (set_cur st l u) k = nxtv st k.
Proof. unfold nxtv, set_cur, upd; cbn. destruct (Nat.eqb_spec k l); [subst|]; reflexivity. Qed.
Lemma curv_set_nxt st l u k : curv (set_nxt st l u) k = curv st k.
Proof. unfold curv, set_nxt, upd; cbn. destruct (Nat.eqb_spec k l); [subst|]; reflexivity. Qed.
Lemma nxtv_set_nxt st l u k : nxtv (set_nxt st l u) k = if Nat.eqb k l then u else nxtv st k.
Proof. unfold nxtv, set_nxt, upd; cbn. destruct (Nat.eqb k l); reflexivity. Qed.

Lemma nodup_app_iff {A} (a b : list A) :
  NoDup (a ++ b) <-> NoDup a /\ NoDup b /\ (forall x, In x a -> In x b -> False).
Proof.
  induction a as [|x a IH]; cbn [app].
  - split; [intros H; repeat split; [constructor|exact H|intros ? []]|intros (_ & H & _); exact H].
  - rewrite !NoDup_cons_iff, IH, in_app_iff. split.
    + intros (Hx & Ha & Hb & Hd). split; [tauto|]. split; [exact Hb|].
      intros y [->|Hy] Hyb; [tauto|exact (Hd y Hy Hyb)].
    + intros ((Hx & Ha) & Hb & Hd). split; [intros [H|H]; [tauto|exact (Hd x (or_introl eq_refl) H)]|].
      split; [exact Ha|]. split; [exact Hb|]. intros y Hy. apply Hd. right; exact Hy.
Qed.

Lemma app_inv_length {A} (a a' b b' : list A) : length a = length a' -> a ++ b = a' ++ b' -> a = a' /\ b = b'.
Proof.
  revert a'. induction a as [|x a IH]; intros [|y a'] Hl E; cbn in *; try discriminate; [split; [reflexivity|exact E]|].
  inversion E; subst. destruct (IH a' ltac:(lia) ltac:(assumption)) as [-> ->]. split; reflexivity.
Qed.

Lemma in_concat_map {A B} (f : A -> list B) (l : list A) x : In x (concat (map f l)) <-> exists a, In a l /\ In x (f a).
Proof. rewrite <- flat_map_concat_map. apply in_flat_map. Qed.

Lemma read_frame st st' o : (forall l, In l (leaves o) -> curv st' l = curv st l) -> read st' o = read st o.
Proof.
  induction o as [l|id cs IH|id cs IH] using obj_ind'; cbn [read leaves]; intros H; f_equal.
  1: { apply H. left; reflexivity. }
  all: apply map_ext_in; intros c Hc; rewrite Forall_forall in IH; apply (IH c Hc).
  all: intros l Hl; apply H, in_concat_map; exists c; split; assumption.
Qed.

Lemma leaves_incl_locs o : forall k, In k (leaves o) -> In k (locs o).
Proof.
  induction o as [l|id cs IH|id cs IH] using obj_ind'; cbn [leaves locs]; intros k Hk.
  1: exact Hk.
  all: right; apply in_concat_map in Hk as (c & Hc & Hk); apply in_concat_map; exists c; split; [exact Hc|].
  all: rewrite Forall_forall in IH; apply (IH c Hc), Hk.
Qed.

Lemma nodup_concat_leaves cs :
  Forall (fun o => NoDup (locs o) -> NoDup (leaves o)) cs ->
  NoDup (concat (map locs cs)) -> NoDup (concat (map leaves cs)).
Proof.
  induction 1 as [|c cr Hc _ IH]; cbn [map concat]; intros H; [constructor|].
  apply nodup_app_iff in H as (H1 & H2 & H3). apply nodup_app_iff. split; [apply Hc, H1|]. split; [apply IH, H2|].
  intros x Hx Hy. apply (H3 x); [apply leaves_incl_locs, Hx|].
  apply in_concat_map in Hy as (c' & Hc' & Hy). apply in_concat_map. exists c'. split; [exact Hc'|apply leaves_incl_locs, Hy].
Qed.

Lemma nodup_leaves o : NoDup (locs o) -> NoDup (leaves o).
Proof.
  induction o as [l|id cs IH|id cs IH] using obj_ind'; cbn [leaves locs]; intros H.
  1: exact H.
  all: inversion H; subst; apply nodup_concat_leaves; assumption.
Qed.

Lemma osame_concat_length cs : Forall (fun d => forall s, osame d s = true -> length (leaves d) = length (leaves s)) cs ->
  forall ds, forall2b osame cs ds = true -> length (concat (map leaves cs)) = length (concat (map leaves ds)).
Proof.
  induction 1 as [|c cr Hc _ IH]; intros [|d dr] H; cbn [forall2b] in H; try discriminate; [reflexivity|].
  apply andb_prop in H as [H1 H2]. cbn [map concat]. rewrite !app_length, (Hc d H1), (IH dr H2). reflexivity.
Qed.

Lemma osame_leaves_length d : forall s, osame d s = true -> length (leaves d) = length (leaves s).
Proof.
  induction d as [l|id cs IH|id cs IH] using obj_ind'; intros [l'|id' ds|id' ds] H; cbn [osame] in H; try discriminate;
    cbn [leaves].
  1: reflexivity.
  all: apply osame_concat_length; assumption.
Qed.

Lemma read_ext2_list st st' cs :
  Forall (fun d => forall s, osame d s = true -> map (curv st') (leaves d) = map (curv st) (leaves s) -> read st' d = read st s) cs ->
  forall ds, forall2b osame cs ds = true ->
  map (curv st') (concat (map leaves cs)) = map (curv st) (concat (map leaves ds)) ->
  map (read st') cs = map (read st) ds.
Proof.
  induction 1 as [|c cr Hc _ IH]; intros [|d dr] H E; cbn [forall2b] in H; try discriminate; [reflexivity|].
  apply andb_prop in H as [H1 H2]. cbn [map concat] in *. rewrite !map_app in E.
  apply app_inv_length in E as [E1 E2]; [|rewrite !map_length; apply osame_leaves_length, H1].
  f_equal; [apply Hc; assumption|apply IH; assumption].
Qed.

(* same skeleton + same leaf values, leaf by leaf  ==>  same value *)
Lemma read_ext2 st st' d : forall s, osame d s = true ->
  map (curv st') (leaves d) = map (curv st) (leaves s) -> read st' d = read st s.
Proof.
  induction d as [l|id cs IH|id cs IH] using obj_ind'; intros [l'|id' ds|id' ds] H E; cbn [osame] in H; try discriminate;
    cbn [leaves read] in *.
  1: { inversion E. reflexivity. }
  all: f_equal; eapply read_ext2_list; eassumption.
Qed.

(* The leaf-by-leaf loops of @=, <<= and _flip: component W of cell d takes component R of cell x, pair by pair.
   The last premise is what makes every step read the value its source had before the loop: for @= (R = W = cur)
   it is the disjointness of targets and sources, for <<= and _flip it holds because R is not the component written. *)
Lemma leaf_loop_spec (getW getR getO : store -> nat -> Z) (setW : store -> nat -> Z -> store) :
  (forall s l u k, getW (setW s l u) k = if Nat.eqb k l then u else getW s k) ->
  (forall s l u k, getO (setW s l u) k = getO s k) ->
  forall ds ss st, NoDup ds -> length ds = length ss ->
  (forall s d u x, In d ds -> In x ss -> getR (setW s d u) x = getR s x) ->
  let st' := fold_left (fun s p => setW s (fst p) (getR s (snd p))) (combine ds ss) st in
  map (getW st') ds = map (getR st) ss /\
  (forall k, ~ In k ds -> getW st' k = getW st k) /\ (forall k, getO st' k = getO st k).
Proof.
  intros HW HO. induction ds as [|d dr IH]; intros [|x xr] st Hnd Hlen HR; cbn in Hlen; try discriminate.
  - cbn. repeat split; reflexivity.
  - cbn [combine fold_left fst snd]. inversion Hnd as [|? ? Hd Hndr]; subst.
    assert (HR' : forall s d' u x', In d' dr -> In x' xr -> getR (setW s d' u) x' = getR s x').
    { intros s d' u x' Hd' Hx'. apply HR; right; assumption. }
    destruct (IH xr (setW st d (getR st x)) Hndr ltac:(lia) HR') as (E1 & E2 & E3).
    cbn zeta. split; [|split].
    + cbn [map]. f_equal.
      * rewrite E2, HW, Nat.eqb_refl by exact Hd. reflexivity.
      * rewrite E1. apply map_ext_in. intros k Hk. apply HR; [left; reflexivity|right; exact Hk].
    + intros k Hk. rewrite E2 by (intros Hin; apply Hk; right; exact Hin).
      rewrite HW. destruct (Nat.eqb_spec k d) as [->|]; [|reflexivity]. exfalso. apply Hk. left; reflexivity.
    + intros k. rewrite E3. apply HO.
Qed.

Lemma flip_spec o st : NoDup (leaves o) ->
  map (curv (flip o st)) (leaves o) = map (nxtv st) (leaves o) /\
  (forall k, ~ In k (leaves o) -> curv (flip o st) k = curv st k) /\ (forall k, nxtv (flip o st) k = nxtv st k).
Proof.
  intros Hnd. unfold flip.
  replace (fold_left (fun s l => set_cur s l (nxtv s l)) (leaves o) st)
    with (fold_left (fun s p => set_cur s (fst p) (nxtv s (snd p))) (combine (leaves o) (leaves o)) st).
  - apply (leaf_loop_spec curv nxtv nxtv set_cur curv_set_cur nxtv_set_cur); [exact Hnd|reflexivity|].
    intros s d u x _ _. apply nxtv_set_cur.
  - clear Hnd. generalize st. induction (leaves o) as [|l ls IH]; intros s; [reflexivity|apply IH].
Qed.

Lemma leaf_loc_in o : forall p l, leaf_loc o p = Some l -> In l (leaves o).
Proof.
  induction o as [l0|id cs IH|id cs IH] using obj_ind'; intros p l H; destruct p as [|[i|i] q]; cbn [leaf_loc] in H; try discriminate.
  1: { inversion H. left; reflexivity. }
  all: destruct (nth_error cs i) as [c|] eqn:E; [|discriminate]; apply nth_error_In in E.
  all: cbn [leaves]; apply in_concat_map; exists c; split; [exact E|].
  all: rewrite Forall_forall in IH; eapply IH; eassumption.
Qed.

(* an in-place write to a leaf of one object is invisible through any object that shares no leaf with it *)
Lemma poke_frame o o' p u st : disjoint (leaves o) (leaves o') -> read (poke o p u st) o' = read st o'.
Proof.
  intros Hd. unfold poke. destruct (leaf_loc o p) as [l|] eqn:E; [|reflexivity].
  apply leaf_loc_in in E. apply read_frame. intros k Hk. rewrite curv_set_cur.
  destruct (Nat.eqb_spec k l) as [->|]; [|reflexivity]. exfalso. exact (Hd l E Hk).
Qed.

Lemma poke_nxtv o p u st k : nxtv (poke o p u st) k = nxtv st k.
Proof. unfold poke. destruct (leaf_loc o p); [apply nxtv_set_cur|reflexivity]. Qed.

(* @= : visible at once, source untouched, nothing shared afterwards *)
Theorem imatmul_copies dst src st : osame dst src = true -> NoDup (leaves dst) -> disjoint (leaves dst) (leaves src) ->
  let st' := imatmul dst src st in
  read st' dst = read st src /\ read st' src = read st src /\
  (forall o, disjoint (leaves dst) (leaves o) -> read st' o = read st o) /\
  (forall p u, read (poke src p u st') dst = read st' dst) /\
  (forall p u, read (poke dst p u st') src = read st' src).
Proof.
  intros Hs Hnd Hdj. pose proof (osame_leaves_length _ _ Hs) as Hlen.
  assert (HR : forall s d u x, In d (leaves dst) -> In x (leaves src) -> curv (set_cur s d u) x = curv s x).
  { intros s d u x Hd Hx. rewrite curv_set_cur. destruct (Nat.eqb_spec x d) as [->|]; [destruct (Hdj d Hd Hx)|reflexivity]. }
  destruct (leaf_loop_spec curv curv nxtv set_cur curv_set_cur nxtv_set_cur _ _ st Hnd Hlen HR) as (E1 & E2 & _).
  cbn zeta. fold (imatmul dst src st) in E1, E2.
  assert (Hfr : forall o, disjoint (leaves dst) (leaves o) -> read (imatmul dst src st) o = read st o).
  { intros o Ho. apply read_frame. intros l Hl. apply E2. intros Hin. exact (Ho l Hin Hl). }
  split; [apply read_ext2; assumption|]. split; [apply Hfr, Hdj|]. split; [exact Hfr|]. split.
  - intros p u. apply poke_frame. intros x Hx Hy. exact (Hdj x Hy Hx).
  - intros p u. apply poke_frame. exact Hdj.
Qed.

(* <<= then _flip : nothing visible before the flip; the flip delivers the value the source had at <<= *)
Theorem ilshift_defers dst src st : osame dst src = true -> NoDup (leaves dst) ->
  let st1 := ilshift dst src st in
  (forall o, read st1 o = read st o) /\
  (forall st2, (forall k, nxtv st2 k = nxtv st1 k) -> read (flip dst st2) dst = read st src) /\
  (forall o, disjoint (leaves dst) (leaves o) -> read (flip dst st1) o = read st o).
Proof.
  intros Hs Hnd. pose proof (osame_leaves_length _ _ Hs) as Hlen.
  destruct (leaf_loop_spec nxtv curv curv set_nxt nxtv_set_nxt curv_set_nxt _ _ st Hnd Hlen) as (E1 & _ & E3).
  { intros s d u x _ _. apply curv_set_nxt. }
  cbn zeta. fold (ilshift dst src st) in E1, E3. split; [|split].
  - intros o. apply read_frame. intros l _. apply E3.
  - intros st2 H2. destruct (flip_spec dst st2 Hnd) as (F1 & _ & _).
    apply read_ext2; [exact Hs|]. rewrite F1, <- E1. apply map_ext. exact H2.
  - intros o Ho. destruct (flip_spec dst (ilshift dst src st) Hnd) as (_ & F2 & _).
    apply read_frame. intros l Hl. rewrite F2 by (intros Hin; exact (Ho l Hin Hl)). apply E3.
Qed.

Corollary ilshift_flip dst src st : osame dst src = true -> NoDup (leaves dst) ->
  read (flip dst (ilshift dst src st)) dst = read st src.
Proof. intros Hs Hnd. destruct (ilshift_defers dst src st Hs Hnd) as (_ & H & _). apply H. reflexivity. Qed.

(* the source may even be overwritten between <<= and _flip *)
Corollary ilshift_snapshot dst src st p u : osame dst src = true -> NoDup (leaves dst) ->
  read (flip dst (poke src p u (ilshift dst src st))) dst = read st src.
Proof. intros Hs Hnd. destruct (ilshift_defers dst src st Hs Hnd) as (_ & H & _). apply H. intros k. apply poke_nxtv. Qed.

(* construction: everything a constructor / from_bits / clone builds is new *)
Definition alloc_ok (st : store) (o : obj) (st' : store) (v : value) : Prop :=
  (next st <= next st')%nat /\
  (forall k, (k < next st)%nat -> cells st' k = cells st k) /\
  (forall k, In k (locs o) -> (next st <= k < next st')%nat) /\
  NoDup (locs o) /\ read st' o = v.

Lemma read_cells_frame st st' o : (forall k, In k (locs o) -> cells st' k = cells st k) -> read st' o = read st o.
Proof. intros H. apply read_frame. intros l Hl. unfold curv. rewrite H by (apply leaves_incl_locs, Hl). reflexivity. Qed.

Lemma alloc_list_ok vs : Forall (fun v => forall st, alloc_ok st (fst (alloc v st)) (snd (alloc v st)) v) vs ->
  forall st, let os := fst (alloc_list alloc vs st) in let st' := snd (alloc_list alloc vs st) in
  (next st <= next st')%nat /\
  (forall k, (k < next st)%nat -> cells st' k = cells st k) /\
  (forall k, In k (concat (map locs os)) -> (next st <= k < next st')%nat) /\
  NoDup (concat (map locs os)) /\ map (read st') os = vs.
Proof.
  induction 1 as [|v vr Hv _ IH]; intros st.
  - cbn. repeat split; try lia; try constructor; try (intros k []); try reflexivity.
  - cbn [alloc_list]. specialize (Hv st). destruct (alloc v st) as [o st1] eqn:Ea. cbn [fst snd] in Hv.
    specialize (IH st1). destruct (alloc_list alloc vr st1) as [os st2] eqn:El. cbn [fst snd] in IH |- *.
    destruct Hv as (A1 & A2 & A3 & A4 & A5). destruct IH as (B1 & B2 & B3 & B4 & B5).
    cbn zeta. cbn [map concat]. split; [lia|]. split; [intros k Hk; rewrite B2 by lia; apply A2, Hk|].
    split; [intros k Hk; apply in_app_or in Hk as [Hk|Hk]; [apply A3 in Hk|apply B3 in Hk]; lia|].
    split.
    + apply nodup_app_iff. split; [exact A4|]. split; [exact B4|].
      intros x Hx Hy. apply A3 in Hx. apply B3 in Hy. lia.
    + f_equal; [|exact B5]. rewrite <- A5. apply read_cells_frame. intros k Hk. apply B2. apply A3 in Hk. lia.
Qed.

Lemma alloc_spec v : forall st, alloc_ok st (fst (alloc v st)) (snd (alloc v st)) v.
Proof.
  induction v as [u|vs IH|vs IH] using value_ind'; intros st.
  1: { cbn [alloc fst snd]. unfold alloc_ok. cbn [next cells locs read]. split; [lia|].
       split; [intros k Hk; unfold upd; destruct (Nat.eqb_spec k (next st)); [lia|reflexivity]|].
       split; [intros k [<-|[]]; lia|]. split; [repeat constructor; intros []|].
       unfold curv, upd. cbn. rewrite Nat.eqb_refl. reflexivity. }
  (* a struct instance and a list alike: the children first, then one new identity above them *)
  all: cbn [alloc]; pose proof (alloc_list_ok vs IH st) as H; destruct (alloc_list alloc vs st) as [os st1].
  all: cbn [fst snd] in *; cbn zeta in H; destruct H as (B1 & B2 & B3 & B4 & B5).
  all: unfold alloc_ok, bump; cbn [next cells locs read]; split; [lia|]; split; [exact B2|].
  all: split; [intros k [<-|Hk]; [lia|apply B3 in Hk; lia]|].
  all: split; [constructor; [intros Hin; apply B3 in Hin; lia|exact B4]|].
  all: f_equal; rewrite <- B5; apply map_ext; intros o; apply read_frame; reflexivity.
Qed.

(* an object is owned by a store when all its identities have been allocated *)
Definition owned (st : store) (o : obj) : Prop := forall k, In k (locs o) -> (k < next st)%nat.

Theorem clone_spec o st : owned st o ->
  let c := fst (clone o st) in let st' := snd (clone o st) in
  read st' c = read st o /\ read st' o = read st o /\
  (forall k, In k (locs c) -> ~ In k (locs o)) /\ NoDup (locs c) /\ owned st' c /\ owned st' o /\
  (forall o', owned st o' -> read st' o' = read st o').
Proof.
  intros Ho. unfold clone. destruct (alloc_spec (read st o) st) as (A1 & A2 & A3 & A4 & A5).
  cbn zeta. split; [exact A5|].
  assert (Hfr : forall o', owned st o' -> read (snd (alloc (read st o) st)) o' = read st o').
  { intros o' Ho'. apply read_cells_frame. intros k Hk. apply A2, Ho', Hk. }
  split; [apply Hfr, Ho|]. split; [intros k Hk Hin; apply A3 in Hk; apply Ho in Hin; lia|].
  split; [exact A4|]. split; [intros k Hk; apply A3 in Hk; lia|]. split; [intros k Hk; apply Ho in Hk; lia|exact Hfr].
Qed.

(* mutating the copy never shows in the original, and vice versa *)
Theorem clone_independent o st p u : owned st o ->
  let c := fst (clone o st) in let st' := snd (clone o st) in
  read (poke c p u st') o = read st o /\ read (poke o p u st') c = read st o.
Proof.
  intros Ho. destruct (clone_spec o st Ho) as (C1 & C2 & C3 & _). cbn zeta in *.
  assert (Hd : disjoint (leaves (fst (clone o st))) (leaves o)).
  { intros x Hx Hy. apply (C3 x); apply leaves_incl_locs; assumption. }
  split.
  - rewrite poke_frame by exact Hd. exact C2.
  - rewrite poke_frame by (intros x Hx Hy; exact (Hd x Hy Hx)). exact C1.
Qed.

(* a list field of len elements is typed like a struct of len equal fields *)
Lemma typed_list_fields e vs : forallb (typed e) vs = true -> forall2b typed (repeat e (length vs)) vs = true.
Proof.
  induction vs as [|v vr IH]; cbn [forallb length repeat forall2b]; intros H; [reflexivity|].
  apply andb_prop in H as [Hv Hr]. rewrite Hv, IH by exact Hr. reflexivity.
Qed.

(* objects built for values of type T have the same skeleton *)
Definition same_skeleton (T : shape) : Prop := forall va vb s1 s2, typed T va = true -> typed T vb = true ->
  osame (fst (alloc va s1)) (fst (alloc vb s2)) = true.

Lemma alloc_list_osame fs : Forall same_skeleton fs -> forall vs ws s1 s2, forall2b typed fs vs = true -> forall2b typed fs ws = true ->
  forall2b osame (fst (alloc_list alloc vs s1)) (fst (alloc_list alloc ws s2)) = true.
Proof.
  induction 1 as [|f fr Hf _ IH]; intros [|v vr] [|w wr] s1 s2 Ha Hb; try discriminate; [reflexivity|].
  cbn [forall2b] in Ha, Hb. apply andb_prop in Ha as [Ha1 Ha2]. apply andb_prop in Hb as [Hb1 Hb2].
  cbn [alloc_list]. specialize (Hf v w s1 s2 Ha1 Hb1). destruct (alloc v s1) as [o1 t1]. destruct (alloc w s2) as [o2 t2].
  specialize (IH vr wr t1 t2 Ha2 Hb2). destruct (alloc_list alloc vr t1) as [os1 u1]. destruct (alloc_list alloc wr t2) as [os2 u2].
  cbn [fst snd forall2b] in *. rewrite Hf, IH. reflexivity.
Qed.

Lemma alloc_osame T : same_skeleton T.
Proof.
  induction T as [n|fs IH|len e IH] using shape_ind'; intros va vb s1 s2 Ha Hb.
  - apply typed_bits_inv in Ha as (u & -> & _). apply typed_bits_inv in Hb as (u' & -> & _). reflexivity.
  - apply typed_struct_inv in Ha as (vs & -> & Ha). apply typed_struct_inv in Hb as (ws & -> & Hb).
    pose proof (alloc_list_osame fs IH vs ws s1 s2 Ha Hb) as G. cbn [alloc].
    destruct (alloc_list alloc vs s1) as [os1 t1]. destruct (alloc_list alloc ws s2) as [os2 t2]. exact G.
  - apply typed_list_inv in Ha as (vs & -> & <- & Ha). apply typed_list_inv in Hb as (ws & -> & Hlen & Hb).
    apply typed_list_fields in Ha, Hb. rewrite Hlen in Hb.
    assert (IHs : Forall same_skeleton (repeat e (length vs))).
    { apply Forall_forall. intros f Hf. apply repeat_spec in Hf. subst f. exact IH. }
    pose proof (alloc_list_osame _ IHs vs ws s1 s2 Ha Hb) as G. cbn [alloc].
    destruct (alloc_list alloc vs s1) as [os1 t1]. destruct (alloc_list alloc ws s2) as [os2 t2]. exact G.
Qed.

(* two freshly built objects of one type satisfy every hypothesis of imatmul_copies / ilshift_defers *)
Theorem alloc_pair_separate T va vb st : typed T va = true -> typed T vb = true ->
  let a := fst (alloc va st) in let st1 := snd (alloc va st) in
  let b := fst (alloc vb st1) in let st2 := snd (alloc vb st1) in
  osame a b = true /\ NoDup (leaves a) /\ NoDup (leaves b) /\ disjoint (leaves a) (leaves b) /\
  read st2 a = va /\ read st2 b = vb.
Proof.
  intros Ha Hb. cbn zeta.
  destruct (alloc_spec va st) as (A1 & A2 & A3 & A4 & A5).
  destruct (alloc_spec vb (snd (alloc va st))) as (B1 & B2 & B3 & B4 & B5).
  split; [eapply alloc_osame; eassumption|]. split; [apply nodup_leaves, A4|]. split; [apply nodup_leaves, B4|].
  split; [intros x Hx Hy; apply leaves_incl_locs in Hx, Hy; apply A3 in Hx; apply B3 in Hy; lia|].
  split; [|exact B5]. transitivity (read (snd (alloc va st)) (fst (alloc va st))); [|exact A5].
  apply read_cells_frame. intros k Hk. apply B2. apply A3 in Hk. lia.
Qed.
