(* Sched/GroupSched.v — schedules made of groups: singleton blocks and cyclic groups (SCCs) that are iterated
   until stable (DynamicSchedulePass, Mamba2020Pass).  C11: whatever such a schedule returns is a state in which
   no block of the design, if run again, changes anything; exhausting the bound is an error.  No axioms. *)
From Coq Require Import List.
Import ListNotations.
From PV Require Import Sched.Block Sched.Confluence Sched.SccIter.

Section Groups.
Context {var val : Type}.
Variable B : nat -> blk var val.
Variable watched : list nat -> var -> bool.     (* watched variables of each cyclic group *)
Variable stable : list nat -> env var val -> env var val -> bool.
Hypothesis stable_sound : forall g e e', stable g e e' = true -> forall v, watched g v = true -> e v = e' v.
Variable fuel : nat.

(* DynamicSchedulePass.py: an SCC with `len(scc) == 1` is appended to the schedule as it is, any other one as the
   iterating wrapped_SCC block of SccIter.v *)
Definition is_single (g : list nat) : bool := match g with [_] => true | _ => false end.

Definition run_group (g : list nat) (e : env var val) : option (env var val) :=
  if is_single g then Some (run_list B g e) else scc_iter B g (stable g) fuel e.

Fixpoint run_groups (gs : list (list nat)) (e : env var val) : option (env var val) :=
  match gs with
  | [] => Some e
  | g :: r => match run_group g e with Some e' => run_groups r e' | None => None end
  end.

(* all cross-group edges go forward, by recursion on the list: no block after g writes what a block of g reads *)
Fixpoint fwd (l : list (list nat)) : Prop :=
  match l with
  | [] => True
  | g :: r => (forall i j v, In i g -> In j (concat r) -> wr (B j) v = true -> rd (B i) v = false) /\ fwd r
  end.

Variable gs : list (list nat).
Notation ids := (concat gs).

Hypothesis Hnd    : NoDup ids.
Hypothesis Hframe : forall i, In i ids -> frame (B i).
Hypothesis Hsdep  : forall i, In i ids -> sdep (B i).
Hypothesis Hnsl   : forall i, In i ids -> nsl (B i).
Hypothesis Hsw    : single_writer B ids.
(* nothing in a later group feeds a block of an earlier group; fwd_gs brings this into the form fwd gs *)
Hypothesis Hfwd : forall g1 g2 pre mid post, gs = pre ++ g1 :: mid ++ g2 :: post ->
  forall i j v, In i g1 -> In j g2 -> wr (B j) v = true -> rd (B i) v = false.
(* each cyclic group's watched list covers its internal communication *)
Hypothesis Hcover : forall g, In g gs -> is_single g = false ->
  forall i j v, In i g -> In j g -> i <> j -> wr (B i) v = true -> rd (B j) v = true -> watched g v = true.

Lemma in_group_in_ids g i : In g gs -> In i g -> In i ids.
Proof. intros Hg Hi. apply in_concat. exists g. split; assumption. Qed.

(* scc_iter_unwritten of SccIter.v, for any group and comparison *)
Lemma scc_iter_frame g st f : (forall i, In i g -> frame (B i)) -> forall e r,
  scc_iter B g st f e = Some r -> forall v, (forall j, In j g -> wr (B j) v = false) -> r v = e v.
Proof. exact (scc_iter_unwritten B g st f). Qed.

Lemma run_group_frame g : In g gs -> forall e r, run_group g e = Some r ->
  forall v, (forall j, In j g -> wr (B j) v = false) -> r v = e v.
Proof.
  intros Hg e r. unfold run_group.
  assert (Hf : forall i, In i g -> frame (B i)) by (intros i Hi; apply Hframe; apply (in_group_in_ids g i Hg Hi)).
  destruct (is_single g).
  - intros [= <-] v H. apply run_list_frame; assumption.
  - intros Hr v H. apply (scc_iter_frame g (stable g) fuel Hf e r Hr v H).
Qed.

Lemma group_fixed g : In g gs -> NoDup g -> forall e r, run_group g e = Some r -> forall i, In i g -> fixed_under B i r.
Proof.
  intros Hg Hndg e r Hr i Hi. unfold run_group in Hr.
  assert (Hin : forall k, In k g -> In k ids) by (intros k Hk; apply (in_group_in_ids g k Hg Hk)).
  destruct (is_single g) eqn:S.
  - destruct g as [|a [|b g']]; try discriminate. injection Hr as <-. destruct Hi as [<-|[]].
    apply (idem B ids Hframe Hsdep Hnsl a (Hin a (or_introl eq_refl))).
  - apply (scc_fixed_point B g (watched g) (stable g) (stable_sound g) Hndg) with (fuel := fuel) (e := e); try assumption.
    + intros k Hk; apply Hframe, Hin, Hk.
    + intros k Hk; apply Hsdep, Hin, Hk.
    + intros k Hk; apply Hnsl, Hin, Hk.
    + intros a b v Ha Hb Hne W. apply (Hsw a b v (Hin a Ha) (Hin b Hb) Hne W).
    + intros a b v Ha Hb Hne W Rv. apply (Hcover g Hg S a b v Ha Hb Hne W Rv).
Qed.

(* the two halves are proved together: that the later groups leave unwritten variables alone is what carries the
   fixed points of a group over them *)
Lemma run_groups_frame_fixed l : incl l gs -> NoDup (concat l) -> fwd l -> forall e r, run_groups l e = Some r ->
  (forall v, (forall j, In j (concat l) -> wr (B j) v = false) -> r v = e v) /\
  (forall i, In i (concat l) -> fixed_under B i r).
Proof.
  induction l as [|g l IH]; intros Hl Hndl Hfw e r Hr; cbn [run_groups concat] in *.
  - injection Hr as <-. split; [reflexivity|intros i []].
  - destruct (run_group g e) as [e1|] eqn:Rg; [|discriminate].
    apply incl_cons_inv in Hl as [Hg Hl]. destruct Hfw as [Hfg Hfw].
    apply NoDup_app_inv in Hndl as [Hndg [Hndl Hdisj]].
    destruct (IH Hl Hndl Hfw e1 r Hr) as [Hfr Hfix].
    split.
    + intros v Hv. rewrite Hfr by (intros j Hj; apply Hv, in_or_app; right; exact Hj).
      apply (run_group_frame g Hg e e1 Rg). intros j Hj. apply Hv, in_or_app. left; exact Hj.
    + intros i Hi. apply in_app_or in Hi as [Hi|Hi]; [|exact (Hfix i Hi)].
      (* a block of g: fixed when g returns, and the later groups write nothing it reads or writes *)
      pose proof (in_group_in_ids g i Hg Hi) as Hiids.
      apply fixed_preserved with (e := e1);
        [apply Hframe, Hiids|apply Hsdep, Hiids|exact (group_fixed g Hg Hndg e e1 Rg i Hi)|].
      intros v Hv. apply Hfr. intros j Hj.
      destruct (wr (B j) v) eqn:Wj; [|reflexivity].
      destruct Hv as [Rv|Wv]; [rewrite (Hfg i j v Hi Hj Wj) in Rv; discriminate|].
      assert (Hne : j <> i) by (intros ->; exact (Hdisj i Hi Hj)).
      apply in_concat in Hj as [g' [Hg' Hj]].
      rewrite (Hsw j i v (in_group_in_ids g' j (Hl g' Hg') Hj) Hiids Hne Wj) in Wv. discriminate.
Qed.

Lemma fwd_gs : fwd gs.
Proof.
  assert (G : forall l pre, gs = pre ++ l -> fwd l).
  { induction l as [|g l IH]; intros pre Hgs; cbn [fwd]; [exact I|]. split.
    - intros i j v Hi Hj. apply in_concat in Hj as [g2 [Hg2 Hj]]. destruct (in_split g2 l Hg2) as [mid [post ->]].
      exact (Hfwd g g2 pre mid post Hgs i j v Hi Hj).
    - apply (IH (pre ++ [g])). rewrite <- app_assoc. exact Hgs. }
  exact (G gs [] eq_refl).
Qed.

(* C11 / C01 for grouped schedules: on return, every block of the design is at its fixed point *)
Theorem grouped_fixed_point e r : run_groups gs e = Some r -> forall i, In i ids -> fixed_under B i r.
Proof. intros Hr. exact (proj2 (run_groups_frame_fixed gs (incl_refl gs) Hnd fwd_gs e r Hr)). Qed.

(* exhausting the bound in any cyclic group makes the whole evaluation an error: never an unstable state *)
Theorem grouped_error_propagates pre g post e e' :
  run_groups pre e = Some e' -> run_group g e' = None -> run_groups (pre ++ g :: post) e = None.
Proof.
  revert e. induction pre as [|p pre IH]; intros e; cbn [run_groups app].
  - intros [= <-] H. rewrite H. reflexivity.
  - destruct (run_group p e) as [e1|]; [|discriminate]. apply IH.
Qed.

End Groups.
