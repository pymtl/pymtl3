(* Sched/GroupAccept.v — certified acceptor for grouped schedules with iterated cyclic groups (C11).
   Fed with: bit-level footprints of every block, the groups in execution order, and the watched objects
   (as bit intervals) of each iterated group, all taken from the real scheduler's output.  No axioms. *)
From Coq Require Import ZArith List Bool Arith Lia Permutation.
Import ListNotations.
From PV Require Import Sched.Block Sched.GroupSched Sched.Accept.

Definition ivl_inter (a b : ivl) : ivl := (iroot a, Z.max (ilo a) (ilo b), Z.min (ihi a) (ihi b)).
Definition ivl_sub (a w : ivl) : bool := Nat.eqb (iroot a) (iroot w) && (ilo w <=? ilo a)%Z && (ihi a <=? ihi w)%Z.

Lemma in_inter v a b : in_ivl v a = true -> in_ivl v b = true -> in_ivl v (ivl_inter a b) = true.
Proof. rewrite !in_ivl_spec. unfold ivl_inter, iroot, ilo, ihi. cbn [fst snd]. lia. Qed.

Lemma in_sub v a w : ivl_sub a w = true -> in_ivl v a = true -> in_ivl v w = true.
Proof.
  unfold ivl_sub. rewrite !in_ivl_spec, !andb_true_iff, Nat.eqb_eq, !Z.leb_le. lia.
Qed.

(* the watched intervals of group g cover every bit through which one block of g feeds another *)
Definition cover_ok (d : design) (g : list nat) (w : fp) : bool :=
  forallb (fun i => forallb (fun j => Nat.eqb i j ||
    forallb (fun a => forallb (fun b => negb (ivl_overlap a b) || existsb (ivl_sub (ivl_inter a b)) w) (rds d j)) (wrs d i)) g) g.

Lemma cover_sound d g w : cover_ok d g w = true -> forall i j v, In i g -> In j g -> i <> j ->
  mem_fp (wrs d i) v = true -> mem_fp (rds d j) v = true -> mem_fp w v = true.
Proof.
  unfold cover_ok, mem_fp. intros H i j v Hi Hj Hne Wv Rv.
  rewrite forallb_forall in H. specialize (H i Hi). rewrite forallb_forall in H. specialize (H j Hj).
  destruct (Nat.eqb_spec i j); [contradiction|]. cbn [orb] in H. rewrite forallb_forall in H.
  apply existsb_exists in Wv, Rv. destruct Wv as [a [Ha Va]]. destruct Rv as [b [Hb Vb]].
  specialize (H a Ha). rewrite forallb_forall in H. specialize (H b Hb).
  rewrite (ivl_overlap_intro v a b Va Vb) in H. cbn [negb orb] in H. apply existsb_exists in H. destruct H as [x [Hx Sx]].
  apply existsb_exists. exists x. split; [exact Hx|]. apply (in_sub v _ x Sx). apply in_inter; assumption.
Qed.

(* all cross-group edges go forward *)
Fixpoint fwd_ok (d : design) (gs : list (list nat)) : bool :=
  match gs with
  | [] => true
  | g :: r => forallb (fun i => forallb (fun j => negb (fp_overlap (wrs d j) (rds d i))) (concat r)) g && fwd_ok d r
  end.

Lemma fwd_sound {val} d (R : nat -> env bit val -> env bit val) gs : fwd_ok d gs = true -> fwd (Bd d R) gs.
Proof.
  induction gs as [|g l IH]; cbn [fwd_ok fwd]; [intros _; exact I|].
  intros H. apply andb_prop in H as [H Hl]. split; [|exact (IH Hl)].
  intros i j v Hi Hj W. cbn [Bd wr rd] in *. destruct (mem_fp (rds d i) v) eqn:Rv; [|reflexivity].
  rewrite forallb_forall in H. specialize (H i Hi). rewrite forallb_forall in H. specialize (H j Hj).
  rewrite (fp_overlap_intro _ _ v W Rv) in H. discriminate.
Qed.

Definition groups_ok (d : design) (gs : list (list nat)) (wfp : list nat -> fp) : bool :=
  wf_design d && perm_b d (concat gs) && sw_ok d && nsl_ok d && fwd_ok d gs &&
  forallb (fun g => is_single g || cover_ok d g (wfp g)) gs.

Section GroupEndToEnd.
Context {val : Type}.
Variable d : design.
Variable R : nat -> env bit val -> env bit val.
Variable gs : list (list nat).
Variable wfp : list nat -> fp.
Variable stable : list nat -> env bit val -> env bit val -> bool.
Variable fuel : nat.
Hypothesis stable_sound : forall g e e', stable g e e' = true -> forall v, mem_fp (wfp g) v = true -> e v = e' v.
Hypothesis Hframe : forall i, In i (ids d) -> frame (Bd d R i).
Hypothesis Hsdep  : forall i, In i (ids d) -> sdep (Bd d R i).
Hypothesis Hok : groups_ok d gs wfp = true.

(* C11: an accepted grouped schedule (cyclic groups iterated until the watched objects are stable, with any
   iteration bound) returns only states in which no block of the design, if run again, changes anything *)
Theorem accepted_groups_fixed_point e r :
  run_groups (Bd d R) stable fuel gs e = Some r ->
  forall i, In i (ids d) -> fixed_under (Bd d R) i r.
Proof.
  pose proof Hok as H. unfold groups_ok in H. rewrite !andb_true_iff, perm_b_spec, forallb_forall in H.
  destruct H as [[[[[Hwf [Hnd Hp]] Hsw] Hnsl] Hfwd] Hcov].
  assert (Hin : forall k, In k (concat gs) -> In k (ids d)) by (intros k Hk; apply (Permutation_in k Hp Hk)).
  (* the hypotheses of Sched/GroupSched.v for the blocks of the groups *)
  assert (Hfr : forall k, In k (concat gs) -> frame (Bd d R k)) by (intros k Hk; apply Hframe, Hin, Hk).
  assert (Hsd : forall k, In k (concat gs) -> sdep (Bd d R k)) by (intros k Hk; apply Hsdep, Hin, Hk).
  assert (Hns : forall k, In k (concat gs) -> nsl (Bd d R k)) by (intros k Hk; apply (nsl_sound d R Hwf Hnsl k (Hin k Hk))).
  assert (Hsw' : single_writer (Bd d R) (concat gs)).
  { intros a b v Ha Hb. apply (sw_sound d R Hwf Hsw a b v (Hin a Ha) (Hin b Hb)). }
  assert (Hcv : forall g, In g gs -> is_single g = false -> forall a b v, In a g -> In b g -> a <> b ->
            wr (Bd d R a) v = true -> rd (Bd d R b) v = true -> mem_fp (wfp g) v = true).
  { intros g Hg Sg. specialize (Hcov g Hg). rewrite Sg in Hcov. exact (cover_sound d g (wfp g) Hcov). }
  intros Hr i Hi.
  exact (proj2 (run_groups_frame_fixed (Bd d R) (fun g => mem_fp (wfp g)) stable stable_sound fuel gs Hfr Hsd Hns Hsw' Hcv
                  gs (incl_refl gs) Hnd (fwd_sound d R gs Hfwd) e r Hr) i (Permutation_in i (Permutation_sym Hp) Hi)).
Qed.

End GroupEndToEnd.
