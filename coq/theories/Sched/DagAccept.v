(* Sched/DagAccept.v — certified acceptor for the CONSTRAINT GRAPH itself (not for one observed schedule).

   pymtl3's static schedulers (SimpleSchedulePass with its random tie-break, DynamicSchedulePass without SCCs, the
   mamba passes) return SOME topological order of the constraint set G = top._dag.all_constraints.  If the graph
   orders every pair the footprints require (Accept.Eb), then EVERY linear extension of G — every schedule any
   tie-break could produce — is accepted by Accept.sched_ok, so the theorems about accepted schedules
   (agreement, fixed point, readers after writers) follow for all of them at once.

   The harness supplies, for every required pair, a path of G as a certificate; the acceptor only checks paths
   (consecutive pairs are edges of G, all nodes are block ids) — no reachability computation inside Coq. *)
From Coq Require Import List Arith Bool Lia Permutation ZArith.
Import ListNotations.
From PV Require Import Sched.Block Sched.Accept.

(* the edge list G as a relation *)
Definition Gb (G : list (nat * nat)) (i j : nat) : bool := pair_in G i j.

(* consecutive nodes are joined by an edge of G and differ: a linear extension orders distinct nodes only *)
Fixpoint path_ok (G : list (nat * nat)) (p : list nat) : bool :=
  match p with
  | a :: r => match r with
              | b :: _ => pair_in G a b && negb (Nat.eqb a b) && path_ok G r
              | [] => true
              end
  | [] => true
  end.

Definition path_from_to (p : list nat) (i j : nat) : bool :=
  match p with
  | a :: _ :: _ => Nat.eqb a i && Nat.eqb (last p O) j
  | _ => false
  end.

(* every node of the path is a block id, so that it occurs in every order of all blocks
   (written with `if` rather than && / implb: vm_compute is call-by-value, and the path checks are only worth doing for
   the pairs that need them) *)
Definition covered (G : list (nat * nat)) (paths : list (list nat)) (n i j : nat) : bool :=
  existsb (fun p => if path_from_to p i j then (if path_ok G p then forallb (fun x => Nat.ltb x n) p else false) else false) paths.

Definition dag_ok (d : design) (G : list (nat * nat)) (paths : list (list nat)) : bool :=
  wf_design d &&
  forallb (fun i => forallb (fun j => if Eb d i j then covered G paths (nblk d) i j else true) (ids d)) (ids d).

Lemma path_pos G o : lin_ext (Gb G) o -> NoDup o -> forall r a b, path_ok G (a :: b :: r) = true ->
  (forall x, In x (a :: b :: r) -> In x o) -> (pos o a < pos o (last (b :: r) O))%nat.
Proof.
  intros L Hnd.
  assert (Hstep : forall a b r, path_ok G (a :: b :: r) = true -> In a o -> In b o ->
            (pos o a < pos o b)%nat /\ path_ok G (b :: r) = true).
  { intros a b r Hp Ha Hb. cbn [path_ok] in Hp. apply andb_prop in Hp as [Hp Hr]. apply andb_prop in Hp as [Hab Hne].
    split; [|exact Hr]. apply (proj1 (lin_ext_pos (Gb G) o Hnd) L a b Ha Hb); [|exact Hab].
    destruct (Nat.eqb_spec a b); [discriminate|assumption]. }
  induction r as [|c r IH]; intros a b Hp Hin;
    destruct (Hstep a b _ Hp (Hin a (or_introl eq_refl)) (Hin b (or_intror (or_introl eq_refl)))) as [Hlt Hr].
  - exact Hlt.
  - specialize (IH b c Hr (fun x Hx => Hin x (or_intror Hx))).
    change (last (b :: c :: r) O) with (last (c :: r) O). lia.
Qed.

Lemma covered_pos d G paths o i j : perm_b d o = true -> lin_ext_b (Gb G) o = true ->
  covered G paths (nblk d) i j = true -> (pos o i < pos o j)%nat.
Proof.
  intros Hp L C. apply perm_b_spec in Hp as [Hnd Hp]. apply lin_ext_b_spec in L.
  unfold covered in C. apply existsb_exists in C. destruct C as [p [_ C]].
  destruct (path_from_to p i j) eqn:Hft; [|discriminate]. destruct (path_ok G p) eqn:Hok; [|discriminate].
  rewrite forallb_forall in C.
  assert (Hin : forall x, In x p -> In x o).
  { intros x Hx. apply (Permutation_in x (Permutation_sym Hp)), in_seq. apply C, Nat.ltb_lt in Hx. lia. }
  unfold path_from_to in Hft. destruct p as [|a [|b r]]; try discriminate.
  apply andb_prop in Hft as [Ha Hl]. apply Nat.eqb_eq in Ha, Hl. subst a. rewrite <- Hl.
  exact (path_pos G o L Hnd r i b Hok Hin).
Qed.

(* the graph acceptor: every linear extension of the accepted graph is an accepted schedule *)
Theorem dag_ok_sound d G paths : dag_ok d G paths = true ->
  forall o, perm_b d o = true -> lin_ext_b (Gb G) o = true -> sched_ok d o = true.
Proof.
  unfold dag_ok. intros H o Hp L. apply andb_prop in H as [Hwf H]. rewrite forallb_forall in H.
  pose proof (proj1 (perm_b_spec d o) Hp) as [Hnd Hpm].
  apply sched_ok_spec. split; [exact Hwf|split; [exact Hnd|split; [exact Hpm|]]].
  apply (lin_ext_pos (Eb d) o Hnd). intros x y Hx Hy _ Exy.
  apply (Permutation_in _ Hpm) in Hx, Hy.
  specialize (H x Hx). rewrite forallb_forall in H. specialize (H y Hy). rewrite Exy in H.
  exact (covered_pos d G paths o x y Hp L H).
Qed.

(* end-to-end: all schedules the constraint graph allows compute the same values (C01), for any block semantics
   that respects the footprints *)
Section AllSchedules.
Context {val : Type}.
Variable d : design.
Variable R : nat -> env bit val -> env bit val.
Hypothesis Hsw : sw_ok d = true.
Hypothesis Hframe : forall i, In i (ids d) -> frame (Bd d R i).
Hypothesis Hdep : forall i, In i (ids d) -> dep (Bd d R i).

Theorem dag_all_schedules_agree G paths : dag_ok d G paths = true ->
  forall o1 o2, perm_b d o1 = true -> lin_ext_b (Gb G) o1 = true -> perm_b d o2 = true -> lin_ext_b (Gb G) o2 = true ->
  forall e, eqe (run_list (Bd d R) o1 e) (run_list (Bd d R) o2 e).
Proof.
  intros H o1 o2 P1 L1 P2 L2 e.
  assert (Hwf : wf_design d = true) by (unfold dag_ok in H; apply andb_prop in H; exact (proj1 H)).
  apply (accepted_schedules_agree d R Hwf Hsw Hframe Hdep o1 o2).
  - apply (dag_ok_sound d G paths H o1 P1 L1).
  - apply (dag_ok_sound d G paths H o2 P2 L2).
Qed.
End AllSchedules.

(* readers after writers in EVERY schedule the graph allows (C02) *)
Theorem dag_orders_readers_after_writers d G paths : dag_ok d G paths = true ->
  forall o, perm_b d o = true -> lin_ext_b (Gb G) o = true ->
  (forall a b v, In a (ids d) -> In b (ids d) -> a <> b -> writes_bit d a v -> reads_bit d b v ->
                 pair_in (expl d) b a = false -> (pos o a < pos o b)%nat) /\
  (forall x y, pair_in (expl d) x y = true -> (pos o x < pos o y)%nat).
Proof.
  intros H o P L. pose proof (sched_ok_sound d o (dag_ok_sound d G paths H o P L)) as [_ [_ HH]]. exact HH.
Qed.

(* non-vacuity: three blocks, b0 writes what b2 reads, the graph orders them only through b1 *)
Definition exD3 : design :=
  mkDesign 3 (fun i => match i with 2%nat => [(0%nat, 0%Z, 4%Z)] | _ => [] end)
             (fun i => match i with 0%nat => [(0%nat, 2%Z, 6%Z)] | _ => [] end) [].
Example dag_ok_example :
  dag_ok exD3 [(0, 1); (1, 2)]%nat [[0; 1; 2]%nat] = true /\
  dag_ok exD3 [(0, 1)]%nat [[0; 1; 2]%nat] = false /\
  perm_b exD3 [0; 1; 2]%nat = true /\ lin_ext_b (Gb [(0, 1); (1, 2)]%nat) [0; 1; 2]%nat = true.
Proof. vm_compute. repeat split; reflexivity. Qed.
