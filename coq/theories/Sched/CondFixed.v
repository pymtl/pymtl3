(* Sched/CondFixed.v — the fixed-point theorem of Sched/Confluence.v (topo_fixed_point) in a CONDITIONAL form, for blocks
   whose strong dependence only holds on the environments on which they complete (a block that raises leaves the
   environment alone, so it is not `sdep`), and whose DECLARED write set may be larger than what they really write:

     ok i e     block i completes on e (does not raise)        — must be decided by the declared reads (ok_ext)
     aw i       the bits block i ACTUALLY writes, aw i ⊆ wr (B i) — frame and strong dependence are stated for aw
     sdep_on    on two environments where block i completes and that agree on rd (B i), it writes the same values

   cond_fixed_point: if no block raises along an evaluation pass in a legal order, every block is at its fixed point
   afterwards, and running the whole pass again changes nothing.   No axioms. *)
From Coq Require Import List.
Import ListNotations.
From PV Require Import Sched.Block Sched.Confluence.

Section CondFixed.
Context {var val : Type}.
Variable B : nat -> blk var val.
Variable ids : list nat.
Variable ok : nat -> env var val -> Prop.
Variable aw : nat -> var -> bool.

Definition sdep_on (i : nat) : Prop :=
  forall e1 e2, ok i e1 -> ok i e2 -> (forall v, rd (B i) v = true -> e1 v = e2 v) ->
  forall v, aw i v = true -> run (B i) e1 v = run (B i) e2 v.
Definition ok_ext (i : nat) : Prop :=
  forall e1 e2, (forall v, rd (B i) v = true -> e1 v = e2 v) -> ok i e1 -> ok i e2.

Hypothesis Haw     : forall i v, In i ids -> aw i v = true -> wr (B i) v = true.
Hypothesis Hframe  : forall i, In i ids -> forall e v, aw i v = false -> run (B i) e v = e v.
Hypothesis Hdep    : forall i, In i ids -> dep (B i).
Hypothesis Hsw     : single_writer B ids.
Hypothesis Hsdep   : forall i, In i ids -> sdep_on i.
Hypothesis Hokext  : forall i, In i ids -> ok_ext i.
Hypothesis Hnsl    : forall i, In i ids -> nsl (B i).
Variable E : nat -> nat -> bool.
Hypothesis Hnoinv  : forall i j, In i ids -> In j ids -> i <> j -> feeds B i j -> E i j = true.

Notation runl := (run_list B).

Lemma frame_wr i : In i ids -> frame (B i).
Proof.
  intros Hi e v W. apply (Hframe i Hi). destruct (aw i v) eqn:A; [|reflexivity].
  rewrite (Haw i v Hi A) in W. discriminate.
Qed.

(* no block raises while the pass s runs on e *)
Definition no_raise (s : list nat) (e : env var val) : Prop :=
  forall s1 i s2, s = s1 ++ i :: s2 -> ok i (runl s1 e).

Theorem cond_fixed_point s : NoDup s -> incl s ids -> lin_ext E s ->
  forall e, no_raise s e -> forall i, In i s -> fixed_under B i (runl s e).
Proof.
  intros Hnd Hin Hs e Hok i Hi.
  destruct (later_keep B ids frame_wr Hsw E Hnoinv s i Hnd Hin Hs Hi) as [s1 [s2 [-> Hlater]]].
  pose proof (Hok s1 i s2 eq_refl) as Ok1.
  rewrite run_list_app. cbn [run_list]. set (e1 := runl s1 e) in *. set (e2 := run (B i) e1).
  assert (Hiids : In i ids) by (apply Hin; exact Hi).
  pose proof (Hlater e2) as Hkeep.
  (* the block completes on e2 and on the final environment too: they agree with e1 on what it reads *)
  assert (R12 : forall u, rd (B i) u = true -> e1 u = e2 u).
  { intros u Ru. unfold e2. symmetry. apply (frame_wr i Hiids). apply (Hnsl i Hiids u Ru). }
  assert (Ok2 : ok i e2) by (apply (Hokext i Hiids e1 e2 R12 Ok1)).
  assert (Ok3 : ok i (runl s2 e2)).
  { apply (Hokext i Hiids e2); [|exact Ok2]. intros u Ru. symmetry. apply Hkeep. left; exact Ru. }
  intro v. destruct (aw i v) eqn:A.
  - rewrite (Hkeep v (or_intror (Haw i v Hiids A))).
    transitivity (run (B i) e2 v).
    + apply (Hsdep i Hiids); [exact Ok3|exact Ok2| |exact A]. intros u Ru. apply Hkeep. left; exact Ru.
    + apply (Hsdep i Hiids); [exact Ok2|exact Ok1| |exact A]. intros u Ru. symmetry. apply R12. exact Ru.
  - apply (Hframe i Hiids). exact A.
Qed.

Lemma fixed_list l : incl l ids -> forall e, (forall i, In i l -> fixed_under B i e) -> eqe (runl l e) e.
Proof.
  induction l as [|a l IH]; intros Hl e H; cbn [run_list]; [intro; reflexivity|].
  assert (Hl' : incl l ids) by (intros x Hx; apply Hl; right; exact Hx).
  intro v. transitivity (runl l e v).
  - apply (run_list_ext B ids frame_wr Hdep l Hl'). apply H. left; reflexivity.
  - apply IH; [exact Hl'|]. intros i Hi. apply H. right; exact Hi.
Qed.

Theorem cond_pass_idempotent s : NoDup s -> incl s ids -> lin_ext E s ->
  forall e, no_raise s e -> eqe (runl s (runl s e)) (runl s e).
Proof.
  intros Hnd Hin Hs e Hok. apply (fixed_list s Hin). intros i Hi. apply cond_fixed_point; assumption.
Qed.

End CondFixed.
