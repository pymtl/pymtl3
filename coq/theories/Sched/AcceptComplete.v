(* Sched/AcceptComplete.v — completeness of the schedule acceptor of Sched/Accept.v (C02): a pass that satisfies the
   property's ordering conditions is accepted, so the acceptor raises no alarm on a schedule where the property holds.
   No axioms. *)
From Coq Require Import List Permutation.
Import ListNotations.
From PV Require Import Sched.Block Sched.Accept.

Theorem sched_ok_complete d order : wf_design d = true ->
  NoDup order -> Permutation order (ids d) ->
  (forall a b v, In a (ids d) -> In b (ids d) -> a <> b -> writes_bit d a v -> reads_bit d b v ->
                 pair_in (expl d) b a = false -> (pos order a < pos order b)%nat) ->
  (forall x y, pair_in (expl d) x y = true -> (pos order x < pos order y)%nat) ->
  sched_ok d order = true.
Proof.
  intros Hwf Hnd Hp H1 H2. apply sched_ok_spec. split; [exact Hwf|split; [exact Hnd|split; [exact Hp|]]].
  apply (lin_ext_Eb d order Hwf Hnd Hp). split; assumption.
Qed.

(* with soundness: the acceptor decides the property's ordering conditions exactly *)
Theorem sched_ok_iff d order : wf_design d = true ->
  (sched_ok d order = true <->
   NoDup order /\ Permutation order (ids d) /\
   (forall a b v, In a (ids d) -> In b (ids d) -> a <> b -> writes_bit d a v -> reads_bit d b v ->
                  pair_in (expl d) b a = false -> (pos order a < pos order b)%nat) /\
   (forall x y, pair_in (expl d) x y = true -> (pos order x < pos order y)%nat)).
Proof.
  intros Hwf. split; [apply sched_ok_sound|].
  intros [Hnd [Hp [H1 H2]]]. apply sched_ok_complete; assumption.
Qed.
