(* Sched/FalseLoop.v — C11, false loops: a cyclic group whose bit-level dependency relation is in fact acyclic
   (some order s of the same blocks is a linear extension of it) settles, whenever the iteration returns, on exactly
   the state one pass of the acyclic reference order computes.  Arbitrary designs.  No axioms. *)
From Coq Require Import List Arith Permutation.
Import ListNotations.
From PV Require Import Sched.Block Sched.Confluence Sched.SccIter.

Section FalseLoop.
Context {var val : Type}.
Variable B : nat -> blk var val.
Variable group : list nat.
Variable watched : var -> bool.
Variable stable : env var val -> env var val -> bool.
Hypothesis stable_sound : forall e e', stable e e' = true -> forall v, watched v = true -> e v = e' v.
Hypothesis Hnd    : NoDup group.
Hypothesis Hframe : forall i, In i group -> frame (B i).
Hypothesis Hsdep  : forall i, In i group -> sdep (B i).
Hypothesis Hnsl   : forall i, In i group -> nsl (B i).
Hypothesis Hsw    : single_writer B group.
Hypothesis Hcover : forall i j v, In i group -> In j group -> i <> j ->
  wr (B i) v = true -> rd (B j) v = true -> watched v = true.

(* scc_iter_unwritten of SccIter.v for the group of this section *)
Lemma scc_iter_frame fuel : forall e r, scc_iter B group stable fuel e = Some r ->
  forall v, (forall i, In i group -> wr (B i) v = false) -> r v = e v.
Proof. exact (scc_iter_unwritten B group stable fuel Hframe). Qed.

(* the acyclic reference: E orders every feeding pair, and s is an order of the same blocks respecting E *)
Variable E : nat -> nat -> bool.
Hypothesis Hnoinv : forall i j, In i group -> In j group -> i <> j -> feeds B i j -> E i j = true.

Theorem false_loop_equals_acyclic_reference s fuel e r :
  Permutation group s -> lin_ext E s ->
  scc_iter B group stable fuel e = Some r -> eqe r (run_list B s e).
Proof.
  intros Hp Hs Hr.
  assert (Hnds : NoDup s) by (apply (Permutation_NoDup Hp Hnd)).
  assert (Hin : incl s group) by (intros x Hx; apply (Permutation_in x (Permutation_sym Hp) Hx)).
  assert (Hall : incl group s) by (intros x Hx; apply (Permutation_in x Hp Hx)).
  apply (fixed_point_unique B group E Hsdep Hnsl Hnoinv s r (run_list B s e) Hnds Hin Hall Hs).
  - intros v Hv. rewrite (scc_iter_frame fuel e r Hr v Hv).
    symmetry. apply run_list_frame; intros j Hj; [apply Hframe|apply Hv]; apply Hin, Hj.
  - intros i Hi. apply (scc_fixed_point B group watched stable stable_sound Hnd Hframe Hsdep Hnsl Hsw Hcover fuel e r Hr i Hi).
  - intros i Hi. apply (topo_fixed_point B group Hframe Hsw E Hsdep Hnsl Hnoinv s Hnds Hin Hs e i (Hall i Hi)).
Qed.

End FalseLoop.

(* non-vacuity: block 0 computes x1 := x0 + 1, block 1 computes x2 := x1 * 2; the group is run in the WRONG order [1;0]
   (as a cyclic-capable scheduler may do inside an SCC) and iterated; the acyclic reference order is [0;1] *)
Definition flB (i : nat) : blk nat nat :=
  match i with
  | 0 => mkBlk (fun v => v =? 0) (fun v => v =? 1) (fun e v => if v =? 1 then e 0 + 1 else e v)
  | 1 => mkBlk (fun v => v =? 1) (fun v => v =? 2) (fun e v => if v =? 2 then e 1 * 2 else e v)
  | _ => mkBlk (fun _ => false) (fun _ => false) (fun e => e)
  end.
Definition flE (i j : nat) : bool := (i =? 0) && (j =? 1).
Definition flStable (e e' : env nat nat) : bool := e 1 =? e' 1.

Lemma fl_in i : In i [1; 0] -> i = 0 \/ i = 1.
Proof. cbn. intros [H|[H|[]]]; auto. Qed.

Lemma false_loop_nonvacuous :
  (forall e e', flStable e e' = true -> forall v, (v =? 1) = true -> e v = e' v) /\
  NoDup [1; 0] /\
  (forall i, In i [1; 0] -> frame (flB i)) /\ (forall i, In i [1; 0] -> sdep (flB i)) /\
  (forall i, In i [1; 0] -> nsl (flB i)) /\ single_writer flB [1; 0] /\
  (forall i j v, In i [1; 0] -> In j [1; 0] -> i <> j -> wr (flB i) v = true -> rd (flB j) v = true -> (v =? 1) = true) /\
  (forall i j, In i [1; 0] -> In j [1; 0] -> i <> j -> feeds flB i j -> flE i j = true) /\
  Permutation [1; 0] [0; 1] /\ lin_ext flE [0; 1] /\
  exists r, scc_iter flB [1; 0] flStable 3 (fun _ => 0) = Some r /\ r 1 = 1 /\ r 2 = 2 /\
            run_list flB [0; 1] (fun _ => 0) 1 = 1 /\ run_list flB [0; 1] (fun _ => 0) 2 = 2 /\
            scc_iter flB [1; 0] flStable 1 (fun _ => 0) = None.
Proof.
  split; [|split; [|split; [|split; [|split; [|split; [|split; [|split; [|split; [|split]]]]]]]]].
  - intros e e' H v Hv. apply Nat.eqb_eq in Hv. subst v. apply Nat.eqb_eq. exact H.
  - repeat constructor; cbn; intuition congruence.
  - intros i Hi e v. destruct (fl_in i Hi) as [-> | ->]; cbn; intros W; rewrite W; reflexivity.
  - intros i Hi e1 e2 H v. destruct (fl_in i Hi) as [-> | ->]; cbn; intros W; rewrite W.
    + rewrite (H 0 eq_refl). reflexivity.
    + rewrite (H 1 eq_refl). reflexivity.
  - intros i Hi v. destruct (fl_in i Hi) as [-> | ->]; cbn; intros R; apply Nat.eqb_eq in R; subst v; reflexivity.
  - intros i j v Hi Hj Hne. destruct (fl_in i Hi) as [-> | ->], (fl_in j Hj) as [-> | ->]; cbn; try congruence;
      intros W; apply Nat.eqb_eq in W; subst v; reflexivity.
  - intros i j v Hi Hj Hne. destruct (fl_in i Hi) as [-> | ->], (fl_in j Hj) as [-> | ->]; cbn; try congruence;
      intros W R; apply Nat.eqb_eq in W; subst v; try reflexivity; discriminate.
  - intros i j Hi Hj Hne [v [W R]]. destruct (fl_in i Hi) as [-> | ->], (fl_in j Hj) as [-> | ->]; cbn in *; try congruence.
    apply Nat.eqb_eq in W. subst v. discriminate.
  - apply perm_swap.
  - cbn. split; [|split; [|exact I]].
    + intros x [<-|[]]. reflexivity.
    + intros x [].
  - eexists. split; [vm_compute; reflexivity|]. vm_compute. repeat split.
Qed.
