(* Sched/Accept.v — certified acceptors: boolean checkers run (inside Coq) on what the implementation actually
   did — the observed execution order of one evaluation pass, the blocks' bit-level footprints, the explicit
   constraints — with theorems  checker = true -> property.   (C02, and the end-to-end forms of C01.)  No axioms. *)
From Coq Require Import ZArith List Bool Arith Lia Permutation.
Import ListNotations.
From PV Require Import Sched.Block Sched.Confluence.

(* bit intervals:  (root signal id, lo, hi)  = bits lo..hi-1 of the packed root signal *)
Definition ivl := (nat * Z * Z)%type.
Definition iroot (a : ivl) : nat := fst (fst a).
Definition ilo (a : ivl) : Z := snd (fst a).
Definition ihi (a : ivl) : Z := snd a.
Definition bit := (nat * Z)%type.

Definition in_ivl (v : bit) (a : ivl) : bool :=
  (Nat.eqb (fst v) (iroot a)) && (ilo a <=? snd v)%Z && (snd v <? ihi a)%Z.
Definition ivl_overlap (a b : ivl) : bool :=
  (Nat.eqb (iroot a) (iroot b)) && (ilo a <? ihi b)%Z && (ilo b <? ihi a)%Z.
(* non-empty.  ivl_overlap compares bounds only, so of two intervals one of which is empty it can say true although no
   bit lies in both: a shared bit gives overlap for any intervals (ivl_overlap_intro), the converse needs wf_ivl *)
Definition wf_ivl (a : ivl) : bool := (ilo a <? ihi a)%Z.

Lemma in_ivl_spec v a : in_ivl v a = true <-> fst v = iroot a /\ (ilo a <= snd v < ihi a)%Z.
Proof. unfold in_ivl. rewrite !andb_true_iff, Nat.eqb_eq, Z.leb_le, Z.ltb_lt. tauto. Qed.

Lemma ivl_overlap_intro v a b : in_ivl v a = true -> in_ivl v b = true -> ivl_overlap a b = true.
Proof.
  intros Ha Hb. apply in_ivl_spec in Ha, Hb. destruct Ha as [Ra Ha], Hb as [Rb Hb].
  unfold ivl_overlap. rewrite <- Ra, Rb, Nat.eqb_refl. apply andb_true_intro. split; apply Z.ltb_lt; lia.
Qed.

Lemma ivl_overlap_spec a b : wf_ivl a = true -> wf_ivl b = true ->
  (ivl_overlap a b = true <-> exists v, in_ivl v a = true /\ in_ivl v b = true).
Proof.
  unfold wf_ivl. intros Wa Wb. apply Z.ltb_lt in Wa, Wb.
  split; [|intros [v [H1 H2]]; exact (ivl_overlap_intro v a b H1 H2)].
  unfold ivl_overlap. rewrite !andb_true_iff, Nat.eqb_eq, !Z.ltb_lt. intros [[Hr H1] H2].
  exists (iroot a, Z.max (ilo a) (ilo b)). rewrite !in_ivl_spec. cbn [fst snd]. lia.
Qed.

Definition fp := list ivl.
Definition mem_fp (f : fp) (v : bit) : bool := existsb (in_ivl v) f.
Definition fp_overlap (f g : fp) : bool := existsb (fun a => existsb (ivl_overlap a) g) f.
Definition wf_fp (f : fp) : bool := forallb wf_ivl f.

Lemma fp_overlap_intro f g v : mem_fp f v = true -> mem_fp g v = true -> fp_overlap f g = true.
Proof.
  unfold fp_overlap, mem_fp. intros H1 H2. apply existsb_exists in H1, H2. destruct H1 as [a [Ha H1]], H2 as [b [Hb H2]].
  apply existsb_exists. exists a. split; [exact Ha|]. apply existsb_exists. exists b. split; [exact Hb|exact (ivl_overlap_intro v a b H1 H2)].
Qed.

Lemma fp_overlap_spec f g : wf_fp f = true -> wf_fp g = true ->
  (fp_overlap f g = true <-> exists v, mem_fp f v = true /\ mem_fp g v = true).
Proof.
  unfold wf_fp. intros Wf Wg. rewrite forallb_forall in Wf, Wg.
  split; [|intros [v [H1 H2]]; exact (fp_overlap_intro f g v H1 H2)].
  unfold fp_overlap, mem_fp. intros H. apply existsb_exists in H. destruct H as [a [Ha H]].
  apply existsb_exists in H. destruct H as [b [Hb H]].
  apply (ivl_overlap_spec a b (Wf a Ha) (Wg b Hb)) in H. destruct H as [v [H1 H2]].
  exists v. split; apply existsb_exists; eauto.
Qed.

(* an observed design: per block id its read and write footprints *)
Record design := mkDesign { nblk : nat; rds : nat -> fp; wrs : nat -> fp; expl : list (nat * nat) }.

Definition ids (d : design) : list nat := seq 0 (nblk d).
Definition pair_in (l : list (nat * nat)) (x y : nat) : bool :=
  existsb (fun p => Nat.eqb (fst p) x && Nat.eqb (snd p) y) l.

Lemma pair_in_spec l x y : pair_in l x y = true <-> In (x, y) l.
Proof.
  unfold pair_in. rewrite existsb_exists. split.
  - intros [[p q] [Hin H]]. cbn [fst snd] in H. apply andb_prop in H as [H1 H2].
    apply Nat.eqb_eq in H1, H2. subst. exact Hin.
  - intros H. exists (x, y). split; [exact H|]. cbn [fst snd]. rewrite !Nat.eqb_refl. reflexivity.
Qed.

(* the constraint set of GenDAGPass.py (top._dag.all_constraints): an implicit edge (wr_blk, rd_blk) for every written
   object some other block reads (`if wr_blk != rd_blk`), kept unless the explicit constraints hold the opposite pair
   (`if (y, x) not in U_U`), and every explicit constraint *)
Definition Eb (d : design) (i j : nat) : bool :=
  (fp_overlap (wrs d i) (rds d j) && negb (pair_in (expl d) j i) && negb (Nat.eqb i j)) || pair_in (expl d) i j.

Fixpoint lin_ext_b (E : nat -> nat -> bool) (l : list nat) : bool :=
  match l with [] => true | a :: r => forallb (fun x => negb (E x a)) r && lin_ext_b E r end.

Lemma lin_ext_b_spec E l : lin_ext_b E l = true <-> lin_ext E l.
Proof.
  induction l as [|a r IH]; cbn [lin_ext_b lin_ext]; [tauto|].
  rewrite andb_true_iff, forallb_forall, IH. split; intros [H1 H2]; split; try exact H2; intros x Hx.
  - specialize (H1 x Hx). destruct (E x a); [discriminate|reflexivity].
  - rewrite (H1 x Hx). reflexivity.
Qed.

Fixpoint nodup_b (l : list nat) : bool :=
  match l with [] => true | a :: r => negb (existsb (Nat.eqb a) r) && nodup_b r end.

Lemma nodup_b_spec l : nodup_b l = true <-> NoDup l.
Proof.
  induction l as [|a r IH]; cbn [nodup_b]; [split; [constructor|reflexivity]|].
  rewrite NoDup_cons_iff, andb_true_iff, negb_true_iff, IH.
  assert (H : existsb (Nat.eqb a) r = false <-> ~ In a r); [|tauto].
  rewrite <- not_true_iff_false, existsb_exists. split; intros H Hin; apply H.
  - exists a. split; [exact Hin|apply Nat.eqb_refl].
  - destruct Hin as [x [Hx Hax]]. apply Nat.eqb_eq in Hax. subst x. exact Hx.
Qed.

Definition perm_b (d : design) (order : list nat) : bool :=
  nodup_b order && Nat.eqb (length order) (nblk d) && forallb (fun i => Nat.ltb i (nblk d)) order.

Lemma perm_b_spec d order : perm_b d order = true <-> NoDup order /\ Permutation order (ids d).
Proof.
  unfold perm_b, ids. rewrite !andb_true_iff, nodup_b_spec, Nat.eqb_eq, forallb_forall. split.
  - intros [[Hnd Hlen] Hlt]. split; [exact Hnd|].
    apply NoDup_Permutation_bis; [exact Hnd|rewrite seq_length, Hlen; reflexivity|].
    intros x Hx. apply in_seq. apply Hlt, Nat.ltb_lt in Hx. lia.
  - intros [Hnd Hp]. split; [split; [exact Hnd|rewrite (Permutation_length Hp); apply seq_length]|].
    intros x Hx. apply (Permutation_in _ Hp), in_seq in Hx. apply Nat.ltb_lt. lia.
Qed.

Fixpoint pos (l : list nat) (x : nat) : nat :=
  match l with [] => O | a :: r => if Nat.eqb a x then O else S (pos r x) end.

Lemma lin_ext_pos E l : NoDup l ->
  (lin_ext E l <-> forall x y, In x l -> In y l -> x <> y -> E x y = true -> (pos l x < pos l y)%nat).
Proof.
  induction 1 as [|a r Hn Hnd IH]; cbn [lin_ext]; [split; [intros _ x y []|intros _; exact I]|].
  rewrite IH. clear IH.
  assert (P0 : pos (a :: r) a = O) by (cbn [pos]; rewrite Nat.eqb_refl; reflexivity).
  assert (PS : forall x, In x r -> pos (a :: r) x = S (pos r x)).
  { intros x Hx. cbn [pos]. destruct (Nat.eqb_spec a x) as [->|_]; [contradiction|reflexivity]. }
  split.
  - intros [Ha Hr] x y [<-|Hx] [<-|Hy] Hne Exy.
    + congruence.
    + rewrite P0, (PS y Hy). lia.
    + rewrite (Ha x Hx) in Exy. discriminate.
    + rewrite (PS x Hx), (PS y Hy). apply -> Nat.succ_lt_mono. exact (Hr x y Hx Hy Hne Exy).
  - intros H. split.
    + intros x Hx. destruct (E x a) eqn:Exa; [|reflexivity].
      assert (Hne : x <> a) by (intros ->; contradiction).
      specialize (H x a (or_intror Hx) (or_introl eq_refl) Hne Exa). rewrite P0 in H. lia.
    + intros x y Hx Hy Hne Exy. specialize (H x y (or_intror Hx) (or_intror Hy) Hne Exy).
      rewrite (PS x Hx), (PS y Hy) in H. lia.
Qed.

Definition wf_design (d : design) : bool :=
  forallb (fun i => wf_fp (rds d i) && wf_fp (wrs d i)) (ids d) &&
  forallb (fun p => Nat.ltb (fst p) (nblk d) && Nat.ltb (snd p) (nblk d) && negb (Nat.eqb (fst p) (snd p))) (expl d).

Definition sched_ok (d : design) (order : list nat) : bool :=
  wf_design d && perm_b d order && lin_ext_b (Eb d) order.

Definition writes_bit (d : design) (i : nat) (v : bit) : Prop := mem_fp (wrs d i) v = true.
Definition reads_bit  (d : design) (i : nat) (v : bit) : Prop := mem_fp (rds d i) v = true.

Lemma sched_ok_spec d o :
  sched_ok d o = true <-> wf_design d = true /\ NoDup o /\ Permutation o (ids d) /\ lin_ext (Eb d) o.
Proof. unfold sched_ok. rewrite !andb_true_iff, perm_b_spec, lin_ext_b_spec. tauto. Qed.

Lemma wf_design_fps d i : wf_design d = true -> In i (ids d) -> wf_fp (rds d i) = true /\ wf_fp (wrs d i) = true.
Proof.
  unfold wf_design. rewrite andb_true_iff, forallb_forall. intros [H _] Hi. apply andb_prop. exact (H i Hi).
Qed.

Lemma wf_design_expl d x y : wf_design d = true -> pair_in (expl d) x y = true -> In x (ids d) /\ In y (ids d) /\ x <> y.
Proof.
  unfold wf_design. rewrite andb_true_iff, !forallb_forall, pair_in_spec. intros [_ H] Hxy.
  specialize (H (x, y) Hxy). cbn [fst snd] in H. rewrite !andb_true_iff, !Nat.ltb_lt, negb_true_iff, Nat.eqb_neq in H.
  unfold ids. rewrite !in_seq. lia.
Qed.

Lemma Eb_spec d i j : wf_design d = true -> In i (ids d) -> In j (ids d) ->
  (Eb d i j = true <->
   (i <> j /\ pair_in (expl d) j i = false /\ exists v, writes_bit d i v /\ reads_bit d j v) \/ pair_in (expl d) i j = true).
Proof.
  intros Hwf Hi Hj. unfold Eb, writes_bit, reads_bit.
  rewrite orb_true_iff, !andb_true_iff, !negb_true_iff, Nat.eqb_neq.
  rewrite (fp_overlap_spec _ _ (proj2 (wf_design_fps d i Hwf Hi)) (proj1 (wf_design_fps d j Hwf Hj))). tauto.
Qed.

Lemma lin_ext_Eb d o : wf_design d = true -> NoDup o -> Permutation o (ids d) ->
  (lin_ext (Eb d) o <->
   (forall a b v, In a (ids d) -> In b (ids d) -> a <> b -> writes_bit d a v -> reads_bit d b v ->
                  pair_in (expl d) b a = false -> (pos o a < pos o b)%nat) /\
   (forall x y, pair_in (expl d) x y = true -> (pos o x < pos o y)%nat)).
Proof.
  intros Hwf Hnd Hp. rewrite (lin_ext_pos (Eb d) o Hnd).
  assert (Hio : forall x, In x (ids d) -> In x o) by (intros x; apply Permutation_in, Permutation_sym, Hp).
  split.
  - intros H. split.
    + intros a b v Ha Hb Hne Wa Rb Hinv. apply H; [apply Hio, Ha|apply Hio, Hb|exact Hne|].
      apply (Eb_spec d a b Hwf Ha Hb). left. split; [exact Hne|split; [exact Hinv|exists v; split; assumption]].
    + intros x y Hxy. destruct (wf_design_expl d x y Hwf Hxy) as [Hx [Hy Hne]].
      apply H; [apply Hio, Hx|apply Hio, Hy|exact Hne|]. apply (Eb_spec d x y Hwf Hx Hy). right; exact Hxy.
  - intros [H1 H2] x y Hx Hy Hne Exy. apply (Permutation_in _ Hp) in Hx, Hy.
    apply (Eb_spec d x y Hwf Hx Hy) in Exy. destruct Exy as [[_ [Hinv [v [Wv Rv]]]]|Hxy].
    + exact (H1 x y v Hx Hy Hne Wv Rv Hinv).
    + exact (H2 x y Hxy).
Qed.

(* C02: in an accepted evaluation pass every block runs exactly once, a block that writes a bit runs before
   every other block that reads that bit unless an explicit constraint inverts the pair, and every explicit
   constraint is honoured *)
Theorem sched_ok_sound d order : sched_ok d order = true ->
  NoDup order /\ Permutation order (ids d) /\
  (forall a b v, In a (ids d) -> In b (ids d) -> a <> b -> writes_bit d a v -> reads_bit d b v ->
                 pair_in (expl d) b a = false -> (pos order a < pos order b)%nat) /\
  (forall x y, pair_in (expl d) x y = true -> (pos order x < pos order y)%nat).
Proof.
  intros H. apply sched_ok_spec in H. destruct H as [Hwf [Hnd [Hp L]]].
  split; [exact Hnd|split; [exact Hp|]]. apply (lin_ext_Eb d order Hwf Hnd Hp). exact L.
Qed.

Definition sw_ok (d : design) : bool :=
  forallb (fun i => forallb (fun j => Nat.eqb i j || negb (fp_overlap (wrs d i) (wrs d j))) (ids d)) (ids d).
Definition nsl_ok (d : design) : bool := forallb (fun i => negb (fp_overlap (rds d i) (wrs d i))) (ids d).
Definition noinv_ok (d : design) : bool :=
  forallb (fun p => negb (fp_overlap (wrs d (snd p)) (rds d (fst p)))) (expl d).

(* end-to-end (C01): any block semantics that respects the observed footprints *)
Section EndToEnd.
Context {val : Type}.
Variable d : design.
Variable R : nat -> env bit val -> env bit val.
Definition Bd (i : nat) : blk bit val := @mkBlk bit val (mem_fp (rds d i)) (mem_fp (wrs d i)) (R i).

Hypothesis Hwf : wf_design d = true.
Hypothesis Hsw : sw_ok d = true.
Hypothesis Hframe : forall i, In i (ids d) -> frame (Bd i).
Hypothesis Hdep : forall i, In i (ids d) -> dep (Bd i).

Lemma sw_sound : single_writer Bd (ids d).
Proof.
  intros i j v Hi Hj Hne W. cbn [Bd wr] in *.
  destruct (mem_fp (wrs d j) v) eqn:Wj; [exfalso|reflexivity].
  pose proof Hsw as H. unfold sw_ok in H. rewrite forallb_forall in H. specialize (H i Hi).
  rewrite forallb_forall in H. specialize (H j Hj).
  destruct (wf_design_fps d i Hwf Hi) as [_ Fi], (wf_design_fps d j Hwf Hj) as [_ Fj].
  rewrite (proj2 (fp_overlap_spec _ _ Fi Fj)) in H by (exists v; split; assumption).
  destruct (Nat.eqb_spec i j); [contradiction|discriminate].
Qed.

Lemma conf_sound : forall i j, In i (ids d) -> In j (ids d) -> i <> j -> feeds Bd i j -> Eb d i j = true \/ Eb d j i = true.
Proof.
  intros i j Hi Hj Hne [v [W Rv]]. cbn [Bd wr rd] in W, Rv.
  destruct (pair_in (expl d) j i) eqn:P.
  - right. apply (Eb_spec d j i Hwf Hj Hi). right; exact P.
  - left. apply (Eb_spec d i j Hwf Hi Hj). left. split; [exact Hne|split; [exact P|exists v; split; assumption]].
Qed.

(* two evaluation passes that the acceptor accepted compute the same state, whatever the blocks do *)
Theorem accepted_schedules_agree o1 o2 : sched_ok d o1 = true -> sched_ok d o2 = true ->
  forall e, eqe (run_list Bd o1 e) (run_list Bd o2 e).
Proof.
  intros H1 H2 e.
  apply sched_ok_spec in H1. destruct H1 as [_ [Hnd1 [Hp1 L1]]]. apply sched_ok_spec in H2. destruct H2 as [_ [_ [Hp2 L2]]].
  apply (topo_confluent Bd (ids d) Hframe Hdep sw_sound (Eb d) conf_sound o1 o2 Hnd1).
  - apply (Permutation_trans Hp1 (Permutation_sym Hp2)).
  - intros x Hx. apply (Permutation_in x Hp1 Hx).
  - exact L1.
  - exact L2.
Qed.

Hypothesis Hsdep : forall i, In i (ids d) -> sdep (Bd i).
Hypothesis Hnsl : nsl_ok d = true.
Hypothesis Hnoinv : noinv_ok d = true.

Lemma nsl_sound i : In i (ids d) -> nsl (Bd i).
Proof.
  intros Hi v Rv. cbn [Bd rd wr] in *. destruct (mem_fp (wrs d i) v) eqn:W; [exfalso|reflexivity].
  pose proof Hnsl as H. unfold nsl_ok in H. rewrite forallb_forall in H. specialize (H i Hi).
  destruct (wf_design_fps d i Hwf Hi) as [Wr Ww].
  rewrite (proj2 (fp_overlap_spec _ _ Wr Ww)) in H by (exists v; split; assumption). discriminate.
Qed.

Lemma noinv_sound : forall i j, In i (ids d) -> In j (ids d) -> i <> j -> feeds Bd i j -> Eb d i j = true.
Proof.
  intros i j Hi Hj Hne [v [W Rv]]. cbn [Bd wr rd] in W, Rv.
  apply (Eb_spec d i j Hwf Hi Hj). left. split; [exact Hne|split; [|exists v; split; assumption]].
  destruct (pair_in (expl d) j i) eqn:P; [exfalso|reflexivity].
  apply pair_in_spec in P. pose proof Hnoinv as H. unfold noinv_ok in H. rewrite forallb_forall in H.
  specialize (H (j, i) P). cbn [fst snd] in H. rewrite (fp_overlap_intro _ _ v W Rv) in H. discriminate.
Qed.

(* after an accepted pass (no inverted pairs, no self loops) every block is at its fixed point *)
Theorem accepted_schedule_fixed_point o : sched_ok d o = true ->
  forall e i, In i (ids d) -> fixed_under Bd i (run_list Bd o e).
Proof.
  intros H e i Hi. apply sched_ok_spec in H. destruct H as [_ [Hnd [Hp L]]].
  apply (topo_fixed_point Bd (ids d) Hframe sw_sound (Eb d) Hsdep nsl_sound noinv_sound o Hnd).
  - intros x Hx. apply (Permutation_in x Hp Hx).
  - exact L.
  - apply (Permutation_in i (Permutation_sym Hp) Hi).
Qed.

End EndToEnd.
