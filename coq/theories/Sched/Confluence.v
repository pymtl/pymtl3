(* Sched/Confluence.v — schedule independence, fixed point, uniqueness (C01); ff permutation independence (C07).
   All theorems are for arbitrary designs (any number of blocks, any variable/value types). No axioms. *)
From Coq Require Import List Permutation.
Import ListNotations.
From PV Require Import Sched.Block.

Lemma eqe_refl {var val} (e : env var val) : eqe e e.
Proof. intro; reflexivity. Qed.
Lemma eqe_sym {var val} (e1 e2 : env var val) : eqe e1 e2 -> eqe e2 e1.
Proof. intros H v; symmetry; apply H. Qed.
Lemma eqe_trans {var val} (e1 e2 e3 : env var val) : eqe e1 e2 -> eqe e2 e3 -> eqe e1 e3.
Proof. intros H1 H2 v; rewrite H1; apply H2. Qed.

Section Lists.
Context {var val : Type}.
Variable B : nat -> blk var val.
Notation runl := (run_list B).

Lemma run_list_app l1 l2 e : runl (l1 ++ l2) e = runl l2 (runl l1 e).
Proof. revert e; induction l1 as [|a l1 IH]; intros e; cbn [run_list app]; [reflexivity|apply IH]. Qed.

Lemma run_list_frame l : (forall i, In i l -> frame (B i)) ->
  forall e v, (forall j, In j l -> wr (B j) v = false) -> runl l e v = e v.
Proof.
  induction l as [|a l IH]; intros Hf e v H; cbn [run_list]; [reflexivity|].
  rewrite IH; [|intros x Hx; apply Hf; right; exact Hx|intros j Hj; apply H; right; exact Hj].
  apply (Hf a); [left; reflexivity|apply H; left; reflexivity].
Qed.

Lemma writer_dec l v : (exists k, In k l /\ wr (B k) v = true) \/ (forall k, In k l -> wr (B k) v = false).
Proof.
  induction l as [|a l [[k [Hk Wk]]|IH]]; [right; intros k []|left; exists k; split; [right; exact Hk|exact Wk]|].
  destruct (wr (B a) v) eqn:Wa; [left; exists a; split; [left; reflexivity|exact Wa]|].
  right. intros k [<-|Hk]; [exact Wa|exact (IH k Hk)].
Qed.

(* a fixed point of block i carries over to any state that agrees with it on rd i ∪ wr i: the step on which the
   fixed-point theorems for a pass, an iterated group and a grouped schedule all end *)
Lemma fixed_preserved i e r : frame (B i) -> sdep (B i) -> fixed_under B i e ->
  (forall v, rd (B i) v = true \/ wr (B i) v = true -> r v = e v) -> fixed_under B i r.
Proof.
  intros Hf Hd Hfix Hag v. destruct (wr (B i) v) eqn:W.
  - rewrite (Hag v (or_intror W)). rewrite <- (Hfix v).
    apply Hd; [|exact W]. intros u Ru. apply Hag. left; exact Ru.
  - apply Hf. exact W.
Qed.

Variable E : nat -> nat -> bool.

Lemma lin_ext_app l1 l2 : lin_ext E (l1 ++ l2) <->
  lin_ext E l1 /\ lin_ext E l2 /\ forall x y, In x l1 -> In y l2 -> E y x = false.
Proof.
  induction l1 as [|a l1 IH]; cbn [app lin_ext].
  - split; [intros H; split; [exact I|split; [exact H|intros x y []]]|intros [_ [H _]]; exact H].
  - rewrite IH. split.
    + intros [Ha [H1 [H2 H3]]]. split; [split; [intros x Hx; apply Ha, in_or_app; left; exact Hx|exact H1]|].
      split; [exact H2|]. intros x y [<-|Hx] Hy; [apply Ha, in_or_app; right; exact Hy|exact (H3 x y Hx Hy)].
    + intros [[Ha H1] [H2 H3]]. split; [|split; [exact H1|split; [exact H2|intros x y Hx; apply H3; right; exact Hx]]].
      intros x Hx. apply in_app_or in Hx. destruct Hx as [Hx|Hx]; [exact (Ha x Hx)|apply (H3 a x); [left; reflexivity|exact Hx]].
Qed.

End Lists.

Lemma lin_ext_false l : lin_ext (fun _ _ => false) l.
Proof. induction l; cbn [lin_ext]; [exact I|split; [reflexivity|assumption]]. Qed.

Section Confluence.
Context {var val : Type}.
Variable B : nat -> blk var val.
Variable ids : list nat.

Hypothesis Hframe : forall i, In i ids -> frame (B i).
Hypothesis Hdep   : forall i, In i ids -> dep (B i).
Hypothesis Hsw    : single_writer B ids.

Notation runl := (run_list B).

Lemma run_ext i : In i ids -> forall e1 e2, eqe e1 e2 -> eqe (run (B i) e1) (run (B i) e2).
Proof.
  intros Hi e1 e2 He v. destruct (wr (B i) v) eqn:W.
  - apply (Hdep i Hi); [intros u _; apply He|exact W].
  - rewrite !(Hframe i Hi) by exact W. apply He.
Qed.

Lemma run_list_ext l : incl l ids -> forall e1 e2, eqe e1 e2 -> eqe (runl l e1) (runl l e2).
Proof.
  induction l as [|a l IH]; intros Hl e1 e2 He; cbn [run_list]; [exact He|].
  apply IH; [intros x Hx; apply Hl; right; exact Hx|].
  apply run_ext; [apply Hl; left; reflexivity|exact He].
Qed.

(* two blocks that neither feed each other nor write the same variable *)
Definition indep (i j : nat) : Prop :=
  forall v, (wr (B i) v = true -> rd (B j) v = false /\ wr (B j) v = false) /\
            (wr (B j) v = true -> rd (B i) v = false /\ wr (B i) v = false).

Lemma indep_sym i j : indep i j -> indep j i.
Proof. intros H v; destruct (H v); split; assumption. Qed.

Lemma half_commute i j : In i ids -> In j ids -> indep i j ->
  forall e v, wr (B i) v = true -> run (B i) (run (B j) e) v = run (B j) (run (B i) e) v.
Proof.
  intros Hi Hj Hind e v Wi.
  destruct (Hind v) as [H1 _]. destruct (H1 Wi) as [_ Wj].
  rewrite (Hframe j Hj (run (B i) e) v Wj).
  apply (Hdep i Hi); [|exact Wi].
  intros u Hu. apply (Hframe j Hj).
  destruct (wr (B j) u) eqn:Wju; [|reflexivity].
  destruct (Hind u) as [_ H2]. destruct (H2 Wju) as [R W]. destruct Hu as [Hu|Hu]; congruence.
Qed.

Lemma commute i j : In i ids -> In j ids -> indep i j ->
  forall e, eqe (run (B i) (run (B j) e)) (run (B j) (run (B i) e)).
Proof.
  intros Hi Hj Hind e v.
  destruct (wr (B i) v) eqn:Wi.
  - apply half_commute; assumption.
  - destruct (wr (B j) v) eqn:Wj.
    + symmetry. apply half_commute; [assumption|assumption|apply indep_sym; exact Hind|exact Wj].
    + rewrite (Hframe i Hi _ v Wi), (Hframe j Hj _ v Wj), (Hframe j Hj _ v Wj), (Hframe i Hi _ v Wi). reflexivity.
Qed.

Lemma bubble a l1 : In a ids -> incl l1 ids -> (forall x, In x l1 -> indep x a) ->
  forall l2 e, incl l2 ids -> eqe (runl (l1 ++ a :: l2) e) (runl (a :: l1 ++ l2) e).
Proof.
  intros Ha. induction l1 as [|x l1 IH]; intros Hl1 Hind l2 e Hl2; [apply eqe_refl|].
  cbn [app run_list].
  assert (Hx : In x ids) by (apply Hl1; left; reflexivity).
  assert (Hl1' : incl l1 ids) by (intros y Hy; apply Hl1; right; exact Hy).
  eapply eqe_trans.
  - apply IH; [exact Hl1'|intros y Hy; apply Hind; right; exact Hy|exact Hl2].
  - cbn [run_list]. apply run_list_ext.
    + intros y Hy. apply in_app_or in Hy. destruct Hy; [apply Hl1'|apply Hl2]; assumption.
    + apply commute; [exact Ha|exact Hx|]. apply indep_sym. apply Hind. left; reflexivity.
Qed.

Variable E : nat -> nat -> bool.

(* every pair of blocks in which one feeds the other is ordered by E, one way or the other *)
Hypothesis Hconf : forall i j, In i ids -> In j ids -> i <> j -> feeds B i j -> E i j = true \/ E j i = true.

Lemma unordered_indep i j : In i ids -> In j ids -> i <> j -> E i j = false -> E j i = false -> indep i j.
Proof.
  intros Hi Hj Hne E1 E2 v. split; intros W; split.
  - destruct (rd (B j) v) eqn:R; [|reflexivity]. exfalso.
    destruct (Hconf i j Hi Hj Hne) as [H|H]; [exists v; split; assumption|congruence|congruence].
  - apply (Hsw i j v Hi Hj Hne W).
  - destruct (rd (B i) v) eqn:R; [|reflexivity]. exfalso.
    destruct (Hconf j i Hj Hi (not_eq_sym Hne)) as [H|H]; [exists v; split; assumption|congruence|congruence].
  - apply (Hsw j i v Hj Hi (not_eq_sym Hne) W).
Qed.

(* C01: any two linear extensions of the constraint relation compute the same state *)
Theorem topo_confluent : forall s t, NoDup s -> Permutation s t -> incl s ids ->
  lin_ext E s -> lin_ext E t -> forall e, eqe (runl s e) (runl t e).
Proof.
  induction s as [|a s IH]; intros t Hnd Hp Hin Hs Ht e.
  - apply Permutation_nil in Hp. subst t. apply eqe_refl.
  - destruct (in_split a t (Permutation_in a Hp (or_introl eq_refl))) as [t1 [t2 ->]].
    apply Permutation_cons_app_inv in Hp.
    assert (Hts : forall x, In x (t1 ++ t2) -> In x s) by (intros x; apply Permutation_in, Permutation_sym, Hp).
    inversion Hnd as [|? ? Hnin Hnd']; subst. destruct Hs as [Hsa Hsr].
    assert (Ha : In a ids) by (apply Hin; left; reflexivity).
    assert (Hs' : incl s ids) by (intros x Hx; apply Hin; right; exact Hx).
    apply lin_ext_app in Ht. destruct Ht as [Ht1 [[_ Ht2] H3]].
    (* s runs a first; in t, a moves to the front past t1, whose blocks are all unordered with it *)
    eapply eqe_trans; [|apply eqe_sym; apply bubble].
    + cbn [run_list]. apply IH; [exact Hnd'|exact Hp|exact Hs'|exact Hsr|].
      apply lin_ext_app. split; [exact Ht1|split; [exact Ht2|intros x y Hx Hy; apply H3; [exact Hx|right; exact Hy]]].
    + exact Ha.
    + intros x Hx. apply Hs', Hts, in_or_app. left; exact Hx.
    + intros x Hx. assert (Hxs : In x s) by (apply Hts, in_or_app; left; exact Hx).
      apply unordered_indep; [apply Hs', Hxs|exact Ha|intros ->; exact (Hnin Hxs)|apply Hsa, Hxs|].
      apply H3; [exact Hx|left; reflexivity].
    + intros x Hx. apply Hs', Hts, in_or_app. right; exact Hx.
Qed.

End Confluence.

Section FixedPoint.
Context {var val : Type}.
Variable B : nat -> blk var val.
Variable ids : list nat.
Hypothesis Hframe : forall i, In i ids -> frame (B i).
Hypothesis Hsw    : single_writer B ids.
Variable E : nat -> nat -> bool.
Hypothesis Hsdep : forall i, In i ids -> sdep (B i).
Hypothesis Hnsl  : forall i, In i ids -> nsl (B i).
(* no inverted pair: a block that feeds another is ordered before it *)
Hypothesis Hnoinv : forall i j, In i ids -> In j ids -> i <> j -> feeds B i j -> E i j = true.

Notation runl := (run_list B).

Lemma idem i : In i ids -> forall e, eqe (run (B i) (run (B i) e)) (run (B i) e).
Proof.
  intros Hi e v. destruct (wr (B i) v) eqn:W.
  - apply (Hsdep i Hi); [|exact W]. intros u Ru. apply (Hframe i Hi). apply (Hnsl i Hi u Ru).
  - apply (Hframe i Hi). exact W.
Qed.

(* in a legal pass, the blocks after i do not feed it, so they leave alone everything i reads or writes *)
Lemma later_keep s i : NoDup s -> incl s ids -> lin_ext E s -> In i s ->
  exists s1 s2, s = s1 ++ i :: s2 /\
    forall e v, rd (B i) v = true \/ wr (B i) v = true -> runl s2 e v = e v.
Proof.
  intros Hnd Hin Hs Hi. destruct (in_split i s Hi) as [s1 [s2 ->]]. exists s1, s2. split; [reflexivity|].
  apply lin_ext_app in Hs. destruct Hs as [_ [[Hafter _] _]].
  assert (Hs2 : incl s2 ids) by (intros x Hx; apply Hin, in_or_app; right; right; exact Hx).
  intros e v Hv. apply run_list_frame; [intros j Hj; apply Hframe, Hs2, Hj|].
  intros j Hj. destruct (wr (B j) v) eqn:Wj; [exfalso|reflexivity].
  assert (Hne : j <> i) by (intros ->; apply (NoDup_remove_2 _ _ _ Hnd), in_or_app; right; exact Hj).
  destruct Hv as [Rv|Wv].
  - pose proof (Hnoinv j i (Hs2 j Hj) (Hin i Hi) Hne (ex_intro _ v (conj Wj Rv))) as Eji.
    rewrite (Hafter j Hj) in Eji. discriminate.
  - rewrite (Hsw j i v (Hs2 j Hj) (Hin i Hi) Hne Wj) in Wv. discriminate.
Qed.

(* C01: after a pass in any legal order, re-running any block changes nothing *)
Theorem topo_fixed_point s : NoDup s -> incl s ids -> lin_ext E s ->
  forall e i, In i s -> fixed_under B i (runl s e).
Proof.
  intros Hnd Hin Hs e i Hi.
  destruct (later_keep s i Hnd Hin Hs Hi) as [s1 [s2 [-> Hkeep]]].
  rewrite run_list_app. cbn [run_list].
  (* i is at its fixed point right after it ran, and the blocks after it do not disturb it *)
  apply fixed_preserved with (e := run (B i) (runl s1 e));
    [apply Hframe, Hin, Hi|apply Hsdep, Hin, Hi|apply idem, Hin, Hi|apply Hkeep].
Qed.

(* C01: the fixed point is unique — it is THE solution of the dataflow equations *)
Theorem fixed_point_unique s e1 e2 : NoDup s -> incl s ids -> incl ids s -> lin_ext E s ->
  (forall v, (forall i, In i ids -> wr (B i) v = false) -> e1 v = e2 v) ->
  (forall i, In i ids -> fixed_under B i e1) -> (forall i, In i ids -> fixed_under B i e2) ->
  eqe e1 e2.
Proof.
  intros Hnd Hin Hall Hs Hunw F1 F2.
  (* along s, the two states agree on everything written by the blocks seen so far *)
  assert (Hpre : forall p q, s = p ++ q -> forall j, In j p -> forall v, wr (B j) v = true -> e1 v = e2 v).
  { induction p as [|i p IH] using rev_ind; intros q Heq j Hj v W; [destruct Hj|].
    rewrite <- app_assoc in Heq. cbn [app] in Heq.
    apply in_app_or in Hj. destruct Hj as [Hj|[<-|[]]]; [apply (IH (i :: q) Heq j Hj v W)|].
    assert (Hi : In i ids) by (apply Hin; rewrite Heq; apply in_or_app; right; left; reflexivity).
    rewrite <- (F1 i Hi v), <- (F2 i Hi v).
    apply (Hsdep i Hi); [|exact W]. intros u Ru.
    destruct (writer_dec B ids u) as [[k [Hk Wk]]|Hno]; [|apply Hunw, Hno].
    (* the writer k of something i reads comes before i in s *)
    assert (Hki : k <> i) by (intros ->; rewrite (Hnsl i Hi u Ru) in Wk; discriminate).
    pose proof (Hnoinv k i Hk Hi Hki (ex_intro _ u (conj Wk Ru))) as Eki.
    pose proof (Hall k Hk) as Hks. rewrite Heq in Hks, Hs. apply in_app_or in Hks. destruct Hks as [Hkp|[->|Hkq]].
    - apply (IH (i :: q) Heq k Hkp u Wk).
    - congruence.
    - apply lin_ext_app in Hs. destruct Hs as [_ [[Hafter _] _]]. rewrite (Hafter k Hkq) in Eki. discriminate. }
  intro v. destruct (writer_dec B ids v) as [[k [Hk Wk]]|Hno]; [|apply Hunw, Hno].
  apply (Hpre s [] (eq_sym (app_nil_r s)) k (Hall k Hk) v Wk).
Qed.

End FixedPoint.

Section FF.
Context {var val : Type}.
Variable B : nat -> blk var val.
Variable ffs : list nat.
Hypothesis Hframe : forall i, In i ffs -> frame (B i).
Hypothesis Hdep   : forall i, In i ffs -> dep (B i).
Hypothesis Hsw    : single_writer B ffs.
(* an update_ff block only writes next-values, which no update_ff block reads *)
Hypothesis Hff : forall i j v, In i ffs -> In j ffs -> i <> j -> wr (B i) v = true -> rd (B j) v = false.

(* every order of the flip-flop blocks gives the same state *)
Theorem ff_perm_indep s t : NoDup s -> Permutation s t -> incl s ffs ->
  forall e, eqe (run_list B s e) (run_list B t e).
Proof.
  intros Hnd Hp Hin e.
  apply (topo_confluent B ffs Hframe Hdep Hsw (fun _ _ => false)); try assumption; try apply lin_ext_false.
  intros i j Hi Hj Hne [v [W R]]. rewrite (Hff i j v Hi Hj Hne W) in R. discriminate.
Qed.

(* edge atomicity: what block i commits is what it computes from the PRE-edge state, wherever it sits in the order *)
Theorem ff_observes_preedge s : NoDup s -> incl s ffs ->
  forall e i v, In i s -> wr (B i) v = true -> run_list B s e v = run (B i) e v.
Proof.
  intros Hnd Hin e i v Hi W.
  destruct (in_split i s Hi) as [s1 [s2 ->]].
  assert (Hp : Permutation (s1 ++ i :: s2) (i :: s1 ++ s2)) by (apply Permutation_sym, Permutation_middle).
  rewrite (ff_perm_indep _ _ Hnd Hp Hin e v). cbn [run_list].
  (* with i run first, no other block writes v *)
  assert (Hl : incl (s1 ++ s2) ffs) by (intros x Hx; apply Hin, (Permutation_in x (Permutation_sym Hp)); right; exact Hx).
  apply run_list_frame; [intros j Hj; apply Hframe, Hl, Hj|].
  intros j Hj. destruct (wr (B j) v) eqn:Wj; [|reflexivity].
  assert (Hne : j <> i) by (intros ->; exact (NoDup_remove_2 _ _ _ Hnd Hj)).
  rewrite (Hsw j i v (Hl j Hj) (Hin i Hi) Hne Wj) in W. discriminate.
Qed.

End FF.
