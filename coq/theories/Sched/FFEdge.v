(* Sched/FFEdge.v — the clock edge as a function of the pre-edge state (C07): hold, edge function, determinacy.
   Arbitrary designs (any number of update_ff blocks, any variable/value types).  No axioms. *)
From Coq Require Import List Arith Permutation.
Import ListNotations.
From PV Require Import Sched.Block Sched.Confluence.

Section FFEdge.
Context {var val : Type}.
Variable B : nat -> blk var val.
Variable ffs : list nat.
Hypothesis Hframe : forall i, In i ffs -> frame (B i).
Hypothesis Hdep   : forall i, In i ffs -> dep (B i).
Hypothesis Hsw    : single_writer B ffs.
(* an update_ff block only writes next-values, which no update_ff block reads *)
Hypothesis Hff : forall i j v, In i ffs -> In j ffs -> i <> j -> wr (B i) v = true -> rd (B j) v = false.

(* hold: a next-value no block of the edge writes keeps its pre-edge content (run_list_frame for the ff blocks) *)
Theorem ff_hold s : incl s ffs ->
  forall e v, (forall i, In i s -> wr (B i) v = false) -> run_list B s e v = e v.
Proof. intros Hin. apply run_list_frame. intros i Hi. apply Hframe, Hin, Hi. Qed.

(* the whole edge is a function of the PRE-edge state alone: every variable is either the value its one writer
   computes from the pre-edge state, or — when nothing writes it — its pre-edge value *)
Theorem ff_edge_function s : NoDup s -> incl s ffs ->
  forall e v,
    (exists i, In i s /\ wr (B i) v = true /\ run_list B s e v = run (B i) e v) \/
    ((forall i, In i s -> wr (B i) v = false) /\ run_list B s e v = e v).
Proof.
  intros Hnd Hin e v. destruct (writer_dec B s v) as [[i [Hi W]]|H].
  - left. exists i. split; [exact Hi|]. split; [exact W|].
    apply (ff_observes_preedge B ffs Hframe Hdep Hsw Hff s Hnd Hin e i v Hi W).
  - right. split; [exact H|apply (ff_hold s Hin e v H)].
Qed.

(* hence two pre-edge states that agree on what the blocks read and write give post-edge states that agree on
   everything written, whatever the two orders are *)
Theorem ff_edge_determined s t e1 e2 : NoDup s -> Permutation s t -> incl s ffs ->
  (forall i v, In i s -> rd (B i) v = true \/ wr (B i) v = true -> e1 v = e2 v) ->
  forall i v, In i s -> wr (B i) v = true -> run_list B s e1 v = run_list B t e2 v.
Proof.
  intros Hnd Hp Hin Hag i v Hi W.
  rewrite <- (ff_perm_indep B ffs Hframe Hdep Hsw Hff s t Hnd Hp Hin e2 v).
  rewrite (ff_observes_preedge B ffs Hframe Hdep Hsw Hff s Hnd Hin e1 i v Hi W), (ff_observes_preedge B ffs Hframe Hdep Hsw Hff s Hnd Hin e2 i v Hi W).
  apply (Hdep i (Hin i Hi)); [|exact W]. intros u Hu. apply (Hag i u Hi Hu).
Qed.

(* any number of edges, each run in its own order of the blocks: the orders never matter *)
Theorem ff_many_edges os1 os2 :
  Forall2 (fun s t => NoDup s /\ Permutation s t /\ incl s ffs) os1 os2 ->
  forall e1 e2, eqe e1 e2 ->
  eqe (fold_left (fun e s => run_list B s e) os1 e1) (fold_left (fun e s => run_list B s e) os2 e2).
Proof.
  induction 1 as [|s t os1 os2 [Hnd [Hp Hin]] _ IH]; intros e1 e2 He; cbn [fold_left]; [exact He|].
  apply IH. intros v.
  rewrite (ff_perm_indep B ffs Hframe Hdep Hsw Hff s t Hnd Hp Hin e1 v).
  assert (Ht : incl t ffs) by (intros x Hx; apply Hin; apply (Permutation_in x (Permutation_sym Hp) Hx)).
  apply (run_list_ext B ffs Hframe Hdep t Ht e1 e2 He v).
Qed.
End FFEdge.

(* non-vacuity of the section hypotheses: the register swap  a <<= b ; b <<= a  as two update_ff blocks.
   variables: 0 = a, 1 = b, 2 = next(a), 3 = next(b), 4 = an unrelated register's next-value *)
Definition swapB (i : nat) : blk nat nat :=
  match i with
  | 0 => mkBlk (fun v => v =? 1) (fun v => v =? 2) (fun e v => if v =? 2 then e 1 else e v)
  | 1 => mkBlk (fun v => v =? 0) (fun v => v =? 3) (fun e v => if v =? 3 then e 0 else e v)
  | _ => mkBlk (fun _ => false) (fun _ => false) (fun e => e)
  end.

Lemma swap_in i : In i [0; 1] -> i = 0 \/ i = 1.
Proof. cbn. intros [H|[H|[]]]; auto. Qed.

Lemma swap_nonvacuous :
  (forall i, In i [0; 1] -> frame (swapB i)) /\
  (forall i, In i [0; 1] -> dep (swapB i)) /\
  single_writer swapB [0; 1] /\
  (forall i j v, In i [0; 1] -> In j [0; 1] -> i <> j -> wr (swapB i) v = true -> rd (swapB j) v = false) /\
  forall e, run_list swapB [0; 1] e 2 = e 1 /\ run_list swapB [0; 1] e 3 = e 0 /\
            run_list swapB [1; 0] e 2 = e 1 /\ run_list swapB [1; 0] e 3 = e 0 /\
            run_list swapB [1; 0] e 4 = e 4.
Proof.
  split; [|split; [|split; [|split]]].
  - intros i Hi e v. destruct (swap_in i Hi) as [-> | ->]; cbn; intros W; rewrite W; reflexivity.
  - intros i Hi e1 e2 H v. destruct (swap_in i Hi) as [-> | ->]; cbn; intros W; rewrite W.
    + apply H. left. reflexivity.
    + apply H. left. reflexivity.
  - intros i j v Hi Hj Hne. destruct (swap_in i Hi) as [-> | ->], (swap_in j Hj) as [-> | ->]; cbn; try congruence;
      intros W; apply Nat.eqb_eq in W; subst v; reflexivity.
  - intros i j v Hi Hj Hne. destruct (swap_in i Hi) as [-> | ->], (swap_in j Hj) as [-> | ->]; cbn; try congruence;
      intros W; apply Nat.eqb_eq in W; subst v; reflexivity.
  - intros e. cbn. repeat split.
Qed.
